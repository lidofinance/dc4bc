(* facts about Go decimal formatting: printing then parsing is the identity, so printing is injective *)
From Coq Require Import List NArith ZArith Lia ZifyNat ZifyBool.
Require Import Lib.GoStr.
Import ListNotations.

Lemma parse_dec_digits fuel : forall n acc, (n < 2 ^ N.of_nat fuel)%N ->
  parse_digits (dec_digits fuel n acc) 0 = parse_digits acc (Z.of_N n).
Proof.
  induction fuel as [|f IH]; intros n acc Hn.
  - change (2 ^ N.of_nat 0)%N with 1%N in Hn. replace n with 0%N by lia. reflexivity.
  - cbn [dec_digits]. rewrite Nat2N.inj_succ, N.pow_succ_r' in Hn.
    assert (Hd : andb (48 <=? 48 + n mod 10)%N (48 + n mod 10 <=? 57)%N = true) by lia.
    destruct (N.eqb_spec (n / 10) 0) as [Eq|Eq].
    + cbn [parse_digits]. rewrite Hd. f_equal. lia.
    + rewrite IH by lia. cbn [parse_digits]. rewrite Hd. f_equal. lia.
Qed.

Lemma parse_dec_of_N n : parse_digits (dec_of_N n) 0 = Some (Z.of_N n).
Proof.
  unfold dec_of_N. rewrite parse_dec_digits; [reflexivity|].
  destruct n as [|p]; [reflexivity|].
  rewrite Nat2N.inj_succ, N2Nat.id. apply N.log2_spec. reflexivity.
Qed.

Lemma dec_of_N_inj a b : dec_of_N a = dec_of_N b -> a = b.
Proof. intros H. pose proof (parse_dec_of_N a) as Ha. rewrite H, parse_dec_of_N in Ha. injection Ha. lia. Qed.

Lemma dec_of_Z_inj a b : dec_of_Z a = dec_of_Z b -> a = b.
Proof.
  unfold dec_of_Z. destruct (a <? 0)%Z eqn:Ea, (b <? 0)%Z eqn:Eb; intros H.
  - injection H as H. apply dec_of_N_inj in H. lia.
  - pose proof (parse_dec_of_N (Z.to_N b)) as Hb. rewrite <- H in Hb. discriminate.
  - pose proof (parse_dec_of_N (Z.to_N a)) as Hb. rewrite H in Hb. discriminate.
  - apply dec_of_N_inj in H. lia.
Qed.

(* ZifyNat switches on the translation of div and mod for every later `lia`, in every file
   that loads this one; it is wanted here only *)
Ltac Zify.zify_convert_to_euclidean_division_equations_flag ::= constr:(false).
