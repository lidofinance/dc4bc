(* List facts the standard library of 8.16 lacks, each used in several files. *)
From Coq Require Import List.
Import ListNotations.

Lemma filter_all {A} (f : A -> bool) l : (forall x, In x l -> f x = true) -> filter f l = l.
Proof.
  induction l as [|a l IH]; intros H; cbn [filter]; [reflexivity|].
  rewrite (H a (in_eq a l)), IH; [reflexivity|]. intros x Hx. apply H, in_cons, Hx.
Qed.

Lemma Forall_snoc {A} (P : A -> Prop) l a : Forall P l -> P a -> Forall P (l ++ [a]).
Proof. intros Hl Ha. apply Forall_app. split; [exact Hl|constructor; [exact Ha|constructor]]. Qed.
