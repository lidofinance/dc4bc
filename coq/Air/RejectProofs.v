(* C18 on the airgapped machine (Air/Reject.v): a rejected operation file changes nothing, neither
   the instances nor the log. *)
From Coq Require Import List.
Require Import Air.Reject.
Import ListNotations.

Theorem rejected_changes_nothing m o m' : aprocess m o = (m', ARejected) -> m' = m.
Proof.
  unfold aprocess. destruct (handler m o) as [ok rounds']. destruct ok; [discriminate|].
  destruct (existsb _ rounds'); [discriminate|]. intros H. inversion H. reflexivity.
Qed.

(* a malformed first operation of a round (no instance yet) is rejected, never answered *)
Theorem malformed_commits_rejected m r :
  has_inst m r = false -> snd (aprocess m {| ao_kind := KCommits; ao_round := r; ao_wellformed := false |}) = ARejected.
Proof.
  intros H. unfold aprocess, handler. cbn [ao_kind ao_round ao_wellformed]. rewrite H.
  unfold has_inst in H. rewrite H. reflexivity.
Qed.

(* a handler that fails leaves the instances as they were (the commits handler registers its instance
   as its last step) *)
Lemma failed_handler_keeps_instances m o : fst (handler m o) = false -> snd (handler m o) = am_rounds m.
Proof.
  unfold handler. destruct (ao_kind o); [|reflexivity|reflexivity].
  destruct (has_inst m (ao_round o)); [reflexivity|].
  destruct (ao_wellformed o); [discriminate|reflexivity].
Qed.

(* an error result never removes or adds an instance, so the machine keeps answering the round *)
Theorem error_result_keeps_instances m o m' : aprocess m o = (m', AErrorResult) -> am_rounds m' = am_rounds m.
Proof.
  unfold aprocess. pose proof (failed_handler_keeps_instances m o) as Hf.
  destruct (handler m o) as [ok rounds']. destruct ok; [discriminate|].
  destruct (existsb _ rounds'); [|discriminate]. intros [= <-]. exact (Hf eq_refl).
Qed.
