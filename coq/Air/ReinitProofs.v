(* C11 / C18 on the reinitialisation path of the airgapped machine. *)
From Coq Require Import List Bool Arith.
Require Import Air.Reinit.
Import ListNotations.

Lemma mem_other r x l : r <> x -> mem r (x :: l) = mem r l.
Proof. intros Hne. unfold mem. cbn [existsb]. destruct (Nat.eqb_spec r x); [contradiction|reflexivity]. Qed.

(* one step touches the round it names only *)
Lemma rstep_other m o r :
  r <> ri_round o ->
  mem r (rm_inst (fst (rstep m o))) = mem r (rm_inst m) /\ mem r (rm_shares (fst (rstep m o))) = mem r (rm_shares m).
Proof.
  intros Hne. unfold rstep. destruct (ri_kind o); [|auto|auto|].
  - destruct (mem (ri_round o) (rm_inst m)); [auto|]. destruct (ri_ok o); [|auto].
    cbn [fst rm_inst rm_shares]. rewrite (mem_other _ _ _ Hne). auto.
  - destruct (mem (ri_round o) (rm_inst m) && ri_ok o); [|auto].
    cbn [fst rm_inst rm_shares]. rewrite (mem_other _ _ _ Hne). auto.
Qed.

(* only the master-key step stores a key share *)
Lemma rstep_shares m o : ri_kind o <> IkMaster -> rm_shares (fst (rstep m o)) = rm_shares m.
Proof.
  intros Hk. unfold rstep. destruct (ri_kind o); [|reflexivity|reflexivity|contradiction].
  destruct (mem (ri_round o) (rm_inst m)), (ri_ok o); reflexivity.
Qed.

Lemma rstep_refused m o : ri_ok o = false -> rstep m o = (m, false).
Proof.
  intros Hbad. unfold rstep. rewrite Hbad.
  destruct (ri_kind o), (mem (ri_round o) (rm_inst m)); reflexivity.
Qed.

(* what the steps of the round preserve, the run preserves *)
Lemma reinit_run_inv (P : rmach -> Prop) outer ops :
  (forall m o, In o ops -> ri_round o = outer -> P m -> P (fst (rstep m o))) ->
  forall m, P m -> P (fst (reinit_run outer m ops)).
Proof.
  induction ops as [|o rest IH]; intros Hstep m Hm; cbn [reinit_run]; [exact Hm|].
  assert (Hrest : forall m, P m -> P (fst (reinit_run outer m rest))).
  { apply IH. intros m1 o1 Hin. apply Hstep. right. exact Hin. }
  destruct (Nat.eqb_spec (ri_round o) outer) as [Eo|Eo]; [|apply Hrest, Hm].
  pose proof (Hstep m o (or_introl eq_refl) Eo Hm) as H1.
  destruct (rstep m o) as [m1 []]; [apply Hrest, H1|exact H1].
Qed.

(* the run ends at the first refused operation of the round, at the latest *)
Lemma reinit_run_stops outer m pre bad post :
  ri_round bad = outer -> ri_ok bad = false ->
  reinit_run outer m (pre ++ bad :: post) = (fst (reinit_run outer m pre), false).
Proof.
  intros Hr Hbad. revert m. induction pre as [|o rest IH]; intros m; cbn [app reinit_run fst].
  - rewrite Hr, Nat.eqb_refl, (rstep_refused m bad Hbad). reflexivity.
  - destruct (Nat.eqb (ri_round o) outer); [|apply IH].
    destruct (rstep m o) as [m1 []]; [apply IH|reflexivity].
Qed.

Lemma handle_reinit_eq outer m ops :
  handle_reinit outer m ops =
  (fst (reinit_run outer m ops), snd (reinit_run outer m ops) && mem outer (rm_shares (fst (reinit_run outer m ops)))).
Proof. unfold handle_reinit. destruct (reinit_run outer m ops). reflexivity. Qed.

(* non-vacuity: the honest log of a round restores its share; with the responses step refused the
   operation fails and nothing is stored; under another outer identifier nothing is carried out *)
Example reinit_examples :
  let log := [ {| ri_kind := IkCommits; ri_round := 7; ri_ok := true |}; {| ri_kind := IkDeals; ri_round := 7; ri_ok := true |};
               {| ri_kind := IkResponses; ri_round := 7; ri_ok := true |}; {| ri_kind := IkMaster; ri_round := 7; ri_ok := true |} ] in
  let bad := [ {| ri_kind := IkCommits; ri_round := 7; ri_ok := true |}; {| ri_kind := IkDeals; ri_round := 7; ri_ok := true |};
               {| ri_kind := IkResponses; ri_round := 7; ri_ok := false |}; {| ri_kind := IkMaster; ri_round := 7; ri_ok := true |} ] in
  handle_reinit 7 fresh_rmach log = ({| rm_inst := [7]; rm_shares := [7] |}, true) /\
  handle_reinit 7 fresh_rmach bad = ({| rm_inst := [7]; rm_shares := [] |}, false) /\
  handle_reinit 8 fresh_rmach log = (fresh_rmach, false).
Proof. vm_compute. repeat split. Qed.
