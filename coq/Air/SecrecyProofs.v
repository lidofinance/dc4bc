(* C04: what the terms that leave the machine let anybody read; whom the deals are addressed to; what
   differs, and what does not, between two rounds of the same machines. *)
From Coq Require Import String List Arith Bool.
Require Import Air.Terms.
Import ListNotations.

(* a list of items each of which reads as nothing (commitments, signatures, answers) *)
Lemma readable_map_nil ks {A} (f : A -> term) l :
  (forall a, readable ks (f a) = []) -> flat_map (readable ks) (map f l) = [].
Proof. intros H. induction l as [|a l IH]; cbn; [reflexivity|]. rewrite H, IH. reflexivity. Qed.

Lemma readable_commits ks t : readable ks (commits t) = [].
Proof. apply readable_map_nil. reflexivity. Qed.

Lemma readable_pubpoly ks t : readable ks (pubpoly t) = [].
Proof. unfold pubpoly. cbn [readable flat_map]. rewrite readable_map_nil by reflexivity. reflexivity. Qed.

Lemma readable_response_entry ks : readable ks response_entry = [].
Proof. reflexivity. Qed.

(* a deal: the sub-share of its addressee, for the addressee's key only *)
Lemma readable_deal ks t j :
  readable ks (deal_for t j) = if existsb (key_eqb (KPart j)) ks then [SSub j] else [].
Proof.
  unfold deal_for. cbn [readable flat_map]. rewrite readable_commits.
  destruct (existsb (key_eqb (KPart j)) ks); reflexivity.
Qed.

Definition only_own_subshares (ks : list key) (l : list secret) : Prop :=
  forall s, In s l -> exists j, s = SSub j /\ existsb (key_eqb (KPart j)) ks = true.

Lemma only_nil ks : only_own_subshares ks [].
Proof. intros s []. Qed.

(* whatever keys somebody holds, a result operation gives him nothing but the sub-shares addressed
   to participants whose long-term key he holds; with no key: nothing *)
Theorem results_expose_only_addressed_subshares o n t me nm err ks x :
  In x (result_terms (result_of o n t me nm err)) -> only_own_subshares ks (readable ks x).
Proof.
  destruct err.
  - intros [<-|[]]. apply only_nil.
  - destruct o.
    + intros [<-|[]]. cbn [mg_body readable flat_map]. rewrite readable_commits. apply only_nil.
    + intros [<-|Hx]; [cbn; apply only_nil|].
      rewrite map_map in Hx. apply in_map_iff in Hx as (j & <- & _).
      cbn [mg_body readable flat_map]. rewrite readable_deal, app_nil_r.
      destruct (existsb (key_eqb (KPart j)) ks) eqn:E; [|apply only_nil].
      intros s [<-|[]]. exists j. split; [reflexivity|exact E].
    + intros [<-|[]]. cbn [mg_body readable flat_map]. rewrite readable_map_nil by reflexivity. apply only_nil.
    + intros [<-|[]]. cbn [mg_body readable flat_map]. rewrite readable_pubpoly. apply only_nil.
    + intros [<-|[]]. cbn [mg_body readable flat_map]. rewrite readable_map_nil by reflexivity. apply only_nil.
    + intros [<-|[]]. rewrite readable_pubpoly. apply only_nil.
Qed.

(* the addressees of the deal messages: the machine itself for its self-confirmation, then `others n me` *)
Theorem deals_addressees n t me :
  map mg_to (rs_msgs (result_of ODeals n t me 0 false)) = Some me :: map Some (others n me).
Proof. cbn. rewrite map_map. reflexivity. Qed.

Theorem right_password_opens pw b : open_with pw pw (Enc KPass b) = Some b.
Proof. cbn. rewrite Nat.eqb_refl. reflexivity. Qed.

(* what does differ between rounds: the randomness of the deals' encryption *)
Theorem rounds_unrelated_partial c1 c2 m p : rc_id c1 <> rc_id c2 -> deal_randomness c1 m p <> deal_randomness c2 m p.
Proof. intros H E. injection E as E. contradiction. Qed.

(* the refuted half of C04: two rounds of the same machines differ in their identifier only *)
Example two_rounds_same_machines :
  let c1 := {| rc_id := 1; rc_t := 2; rc_machines := [0; 1; 2] |} in
  let c2 := {| rc_id := 2; rc_t := 2; rc_machines := [0; 1; 2] |} in
  rc_id c1 <> rc_id c2 /\ group_coincides c1 c2 = true /\ shares_coincide c1 c2 = [true; true; true] /\
  coeffs_coincide c1 c2 = [true; true; true].
Proof. repeat split. discriminate. Qed.
