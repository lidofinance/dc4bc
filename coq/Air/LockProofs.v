(* C04: in every schedule of Air/Lock.v in which the tick takes no step between the command's two
   sections (`gapless_from`) every keyring is saved under a password that was checked. *)
From Coq Require Import List Bool.
Require Import Lib.ListFacts Air.Lock.
Import ListNotations.

(* kept by every schedule in which the tick takes no step between the command's two sections: inside
   each section the command owns the lock and the tick waits, so the password checked in the first
   is still there when the second saves the keyring *)
Definition linv (s : lstate) : Prop :=
  (match cmd s with C1 | C2 | C4 | C5 => lk s = ByCmd | _ => True end) /\
  (match tick s with T0 => True | _ => lk s = ByTick end) /\
  (match cmd s with C2 | C3 | C4 | C5 => enc s = true | _ => True end) /\
  Forall (fun b => b = true) (saved s).

Lemma linv_init : linv linit.
Proof. repeat split; constructor. Qed.

Lemma linv_step s who :
  (who || negb (match cmd s with C3 => true | _ => false end)) = true -> linv s -> linv (lstep s who).
Proof.
  destruct s as [l e c t sv].
  intros Hg (Hc & Ht & He & Hs).
  (* thread x cmd x tick x lk: 108 cases.  The hypothesis is needed in one of them: the tick drops the
     password (T1) owning the lock, so the command is at C0 or C3, and C3 is what Hg excludes *)
  destruct who, c, t, l; try discriminate; repeat split; try assumption;
    try (apply Forall_snoc; assumption).
Qed.

Lemma linv_run sched : forall s, linv s -> gapless_from s sched = true -> linv (lrun_from s sched).
Proof.
  induction sched as [|a r IH]; intros s Hs Hg; [exact Hs|].
  apply andb_prop in Hg as [H1 H2]. apply IH; [apply linv_step; assumption|exact H2].
Qed.

(* non-vacuity: a gapless schedule in which the tick fires while the command is in its handler
   section, and a keyring is saved *)
Example tick_inside_command :
  gapless_from linit [true; true; true; true; false; false; true; true; false; false; false] = true /\
  saved (lrun [true; true; true; true; false; false; true; true; false; false; false]) = [true].
Proof. split; reflexivity. Qed.
