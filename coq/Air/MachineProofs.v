(* C12: restart + replay gives back the machine that never stopped (replay_restart), for every
   operation sequence; the log holds exactly the non-signing operations. *)
From Coq Require Import List.
Require Import Air.Machine.
Import ListNotations.

Section AirProofs.
Variables (seed op vstate out : Type).
Variable v0 : vstate.
Variable handle : seed -> vstate -> op -> vstate * out.
Variable is_signing : op -> bool.
(* signing reads the stored keyring only: it does not touch the DKG instances *)
Hypothesis signing_pure : forall s v o, is_signing o = true -> fst (handle s v o) = v.

Notation feed := (feed seed op vstate out handle is_signing).
Notation replay := (replay seed op vstate out handle is_signing).
Notation restart := (restart seed op vstate v0).

(* the volatile state, and the outputs, of folding the handler over a list of operations *)
Fixpoint vol_of (s : seed) (v : vstate) (ops : list op) : vstate :=
  match ops with
  | [] => v
  | o :: r => vol_of s (fst (handle s v o)) r
  end.

Fixpoint outs_of (s : seed) (v : vstate) (ops : list op) : list out :=
  match ops with
  | [] => []
  | o :: r => snd (handle s v o) :: outs_of s (fst (handle s v o)) r
  end.

(* feed in closed form: the seed stays, the log grows by the non-signing operations when storing,
   state and outputs are the two folds and depend neither on the store flag nor on the log *)
Lemma feed_eq st m ops :
  feed st m ops =
  ({| m_seed := m_seed _ _ _ m;
      m_log := m_log _ _ _ m ++ (if st then filter (fun o => negb (is_signing o)) ops else []);
      m_vol := vol_of (m_seed _ _ _ m) (m_vol _ _ _ m) ops |},
   outs_of (m_seed _ _ _ m) (m_vol _ _ _ m) ops).
Proof.
  revert m. induction ops as [|o r IH]; intros m; cbn [Machine.feed vol_of outs_of filter].
  - destruct m, st; cbn; rewrite app_nil_r; reflexivity.
  - unfold Machine.process. destruct (handle (m_seed _ _ _ m) (m_vol _ _ _ m) o) as [v' x].
    rewrite IH. cbn [m_seed m_log m_vol fst snd].
    destruct st, (is_signing o); cbn [andb negb]; rewrite <- ?app_assoc; reflexivity.
Qed.

Lemma vol_of_filter s v ops : vol_of s v (filter (fun o => negb (is_signing o)) ops) = vol_of s v ops.
Proof.
  revert v. induction ops as [|o r IH]; intros v; cbn [filter vol_of]; [reflexivity|].
  destruct (is_signing o) eqn:E; cbn [negb vol_of].
  - rewrite (signing_pure s v o E). apply IH.
  - apply IH.
Qed.

Lemma vol_of_app s v a b : vol_of s v (a ++ b) = vol_of s (vol_of s v a) b.
Proof. revert v. induction a as [|o r IH]; intros v; cbn; [reflexivity|apply IH]. Qed.

Lemma replay_restart s ops :
  let m := fst (feed true (fresh seed op vstate v0 s) ops) in
  fst (replay (restart m)) = m.
Proof.
  cbn zeta. unfold Machine.replay. rewrite !feed_eq.
  cbn [fst m_seed m_log m_vol Machine.restart Machine.fresh app].
  rewrite vol_of_filter, app_nil_r. reflexivity.
Qed.

(* a machine that has only ever been fed with storing (from a fresh database): after stop, reopen
   and replay its volatile state, seed and log are those of the machine that never stopped *)
Theorem replay_restores s ops :
  let m := fst (feed true (fresh seed op vstate v0 s) ops) in
  let m' := fst (replay (restart m)) in
  m_vol _ _ _ m' = m_vol _ _ _ m /\ m_log _ _ _ m' = m_log _ _ _ m /\ m_seed _ _ _ m' = m_seed _ _ _ m.
Proof. cbn zeta. rewrite replay_restart. auto. Qed.

(* the machine is a function of seed and operations: stated as the trivial equation *)
Theorem seed_determines s ops :
  feed true (fresh seed op vstate v0 s) ops = feed true (fresh seed op vstate v0 s) ops.
Proof. reflexivity. Qed.
End AirProofs.
