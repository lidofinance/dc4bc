(* C03: every participant expands a proposal into the same ordered list of (id, file, payload):
   explicit tasks stand for themselves, a baked range for the positions start <= i < end, each with
   the consensus-spec signing root of the validator at that position (C17). *)
From Coq Require Import List ZArith Lia.
Require Import Lib.GoStr Ssz.Rotation.
Import ListNotations.
Local Open Scope Z_scope.

Section Expand.
Variable lines : list (list N).

Lemma expand_explicit t p rest msgs :
  tk_payload t = Some p -> tasks_to_messages_in lines rest = BOk msgs ->
  tasks_to_messages_in lines (t :: rest) =
    BOk ({| ms_id := tk_id t; ms_file := tk_file t; ms_payload := p; ms_baked := false |} :: msgs).
Proof. intros Hp Hr. cbn [tasks_to_messages_in]. rewrite Hp, Hr. reflexivity. Qed.

(* the expansion of a concatenation is the concatenation of the expansions (order and count) *)
Lemma expand_app a b ma mb :
  tasks_to_messages_in lines a = BOk ma -> tasks_to_messages_in lines b = BOk mb ->
  tasks_to_messages_in lines (a ++ b) = BOk (ma ++ mb).
Proof.
  revert ma. induction a as [|t a IH]; intros ma Ha Hb; cbn [app tasks_to_messages_in] in *.
  - inversion Ha; subst. exact Hb.
  - destruct (match tk_payload t with Some p => _ | None => _ end) as [h|e|]; try discriminate.
    destruct (tasks_to_messages_in lines a) as [ra|e|]; try discriminate.
    inversion Ha; subst. rewrite (IH ra eq_refl Hb). rewrite app_assoc. reflexivity.
Qed.

Lemma baked_range_answered fuel : forall s e,
  (forall i, s <= i < e -> exists m, reconstruct_baked_in lines i = BOk m) ->
  (Z.to_nat (e - s) <= fuel)%nat ->
  exists msgs, baked_range_in lines fuel s e = BOk msgs /\ Z.of_nat (length msgs) = Z.max 0 (e - s) /\
    forall k, (k < length msgs)%nat ->
      exists m, nth_error msgs k = Some m /\ reconstruct_baked_in lines (s + Z.of_nat k) = BOk m.
Proof.
  induction fuel as [|f IH]; intros s e Hpos Hf; cbn [baked_range_in].
  - exists []. split; [reflexivity|]. split; [cbn [length]; lia|]. intros k Hk. cbn [length] in Hk. lia.
  - destruct (Z.ltb_spec s e) as [Hlt|Hge].
    + destruct (Hpos s) as [m Hm]; [lia|]. rewrite Hm.
      destruct (IH (s + 1) e) as (rest & -> & Hlen & Hnth); [intros i Hi; apply Hpos; lia|lia|].
      exists (m :: rest). split; [reflexivity|]. split; [cbn [length]; lia|].
      intros [|k] Hk.
      * exists m. rewrite Z.add_0_r. split; [reflexivity|exact Hm].
      * cbn [length] in Hk. destruct (Hnth k) as (m' & Hn & Hm'); [lia|].
        exists m'. replace (s + Z.of_nat (S k)) with (s + 1 + Z.of_nat k) by lia. split; [exact Hn|exact Hm'].
    + exists []. split; [reflexivity|]. split; [cbn [length]; lia|]. intros k Hk. cbn [length] in Hk. lia.
Qed.

(* the loop stops at the first position r that is refused, wherever the range claims to end: r - s + 1
   steps are enough *)
Lemma baked_range_refused fuel : forall s r e,
  (forall i, s <= i < r -> exists m, reconstruct_baked_in lines i = BOk m) ->
  (exists err, reconstruct_baked_in lines r = BErr err) ->
  s <= r < e -> (Z.to_nat (r - s) < fuel)%nat ->
  exists err, baked_range_in lines fuel s e = BErr err.
Proof.
  induction fuel as [|f IH]; intros s r e Hpos Hbad Hr Hf; [lia|]. cbn [baked_range_in].
  destruct (Z.ltb_spec s e) as [_|Hge]; [|lia].
  destruct (Z.eq_dec s r) as [->|Hne].
  - destruct Hbad as [err ->]. exists err. reflexivity.
  - destruct (Hpos s) as [m ->]; [lia|].
    destruct (IH (s + 1) r e) as [err ->]; [intros i Hi; apply Hpos; lia|exact Hbad|lia|lia|].
    exists err. reflexivity.
Qed.

End Expand.

(* for equations that mention the regenerated list: `injection` on them starts evaluating the list *)
Lemma BOk_inj {A} (a b : A) : BOk a = BOk b -> a = b.
Proof. intros [= ->]. reflexivity. Qed.
