(* Proofs about the SSZ model: the program fastssz generates for a container of
   fixed-size fields computes the consensus-spec hash_tree_root, for every field value. *)
From Coq Require Import String List ZArith Lia ZifyNat.
Require Import Ssz.Sha256 Ssz.Ssz.
Import ListNotations.

Definition len32 (c : list N) : Prop := length c = 32%nat.

Lemma round_length st k : length (fst (round st k)) = 8%nat.
Proof. destruct st as [v w]. reflexivity. Qed.

Lemma fold_round_length ks : forall st, length (fst st) = 8%nat -> length (fst (fold_left round ks st)) = 8%nat.
Proof. induction ks as [|k ks IH]; intros st Hs; [exact Hs|]. apply IH, round_length. Qed.

Lemma compress_length h b : length h = 8%nat -> length (compress h b) = 8%nat.
Proof.
  intros Hh. unfold compress. pose proof (fold_round_length K256 (h, b) Hh) as Hf.
  destruct (fold_left round K256 (h, b)) as [v w]. cbn [fst] in Hf.
  rewrite map_length, combine_length, Hh, Hf. reflexivity.
Qed.

Lemma blocks_length fuel ws h : length h = 8%nat -> length (blocks fuel ws h) = 8%nat.
Proof.
  revert ws h. induction fuel as [|f IH]; intros ws h Hh; cbn [blocks]; [exact Hh|].
  destruct ws; [exact Hh|]. apply IH. apply compress_length. exact Hh.
Qed.

Lemma flat_map_bytes_length ws : length (flat_map bytes_of_word ws) = (4 * length ws)%nat.
Proof. induction ws as [|w ws IH]; [reflexivity|]. cbn [flat_map]. rewrite app_length, IH. cbn. lia. Qed.

Theorem sha256_length msg : length (sha256 msg) = 32%nat.
Proof.
  unfold sha256. rewrite flat_map_bytes_length, blocks_length; reflexivity.
Qed.

Lemma pad32_length_mod bs : (length (pad32 bs) mod 32 = 0)%nat.
Proof.
  unfold pad32. destruct (length bs mod 32)%nat eqn:E; [exact E|].
  rewrite app_length, repeat_length. lia.
Qed.

Lemma pad32_small bs : (0 < length bs <= 32)%nat -> len32 (pad32 bs).
Proof.
  intros H. unfold len32, pad32. destruct (length bs mod 32)%nat eqn:E.
  - lia.
  - rewrite app_length, repeat_length. lia.
Qed.

Lemma chunks_f_forall fuel l :
  (length l mod 32 = 0)%nat -> Forall len32 (chunks_f fuel l).
Proof.
  revert l. induction fuel as [|f IH]; intros l Hm; cbn [chunks_f]; [constructor|].
  destruct l as [|x l']; [constructor|].
  set (l := x :: l') in *.
  assert (Hge : (32 <= length l)%nat) by (subst l; cbn [length] in *; lia).
  constructor.
  - unfold len32. rewrite firstn_length. lia.
  - apply IH. rewrite skipn_length. lia.
Qed.

Lemma chunks_f_concat cs fuel :
  Forall len32 cs -> (length cs <= fuel)%nat -> chunks_f fuel (concat cs) = cs.
Proof.
  revert fuel. induction cs as [|c cs IH]; intros fuel Hall Hf.
  - destruct fuel; reflexivity.
  - inversion Hall as [|c' cs' Hc Hcs]; subst. unfold len32 in Hc.
    destruct fuel as [|f]; [cbn in Hf; lia|].
    cbn [concat chunks_f].
    destruct (c ++ concat cs) as [|y r] eqn:E.
    + destruct c; discriminate.
    + rewrite <- E. rewrite firstn_app, skipn_app, Hc, Nat.sub_diag.
      rewrite firstn_all2 by lia. rewrite skipn_all2 by lia.
      cbn [firstn skipn app]. rewrite app_nil_r. f_equal. apply IH; [exact Hcs|cbn in Hf; lia].
Qed.

Lemma concat_length32 cs : Forall len32 cs -> length (concat cs) = (32 * length cs)%nat.
Proof.
  induction 1 as [|c cs Hc _ IH]; [reflexivity|].
  cbn [concat length]. rewrite app_length, IH. unfold len32 in Hc. lia.
Qed.

Lemma chunks_concat cs : Forall len32 cs -> chunks (concat cs) = cs.
Proof.
  intros H. unfold chunks. apply chunks_f_concat; [exact H|].
  rewrite concat_length32 by exact H. lia.
Qed.

Lemma chunks_single l : len32 l -> chunks l = [l].
Proof.
  intros H. rewrite <- (app_nil_r l) at 1. apply (chunks_concat [l]). constructor; [exact H|constructor].
Qed.

Section WithHash.
Variable H : list N -> list N.
Hypothesis H_length : forall x, len32 (H x).

Lemma zero_chunk_len : len32 zero_chunk.
Proof. reflexivity. Qed.

(* pair_up takes its argument two at a time, and so does the induction *)
Lemma pair_up_forall : forall l, Forall len32 (pair_up H l).
Proof. fix IH 1. intros [|a [|b r]]; cbn [pair_up]; constructor; [apply H_length|apply IH]. Qed.

Lemma reduce_len fuel l : Forall len32 l -> len32 (reduce H fuel l).
Proof.
  revert l. induction fuel as [|f IH]; intros l Hl; cbn [reduce].
  - destruct l; [apply zero_chunk_len|]. inversion Hl; assumption.
  - destruct l as [|c [|d r]].
    + apply IH. constructor.
    + inversion Hl; assumption.
    + apply IH. apply pair_up_forall.
Qed.

Lemma merkleize_len cs : Forall len32 cs -> len32 (merkleize H cs).
Proof.
  intros Hc. unfold merkleize. apply reduce_len.
  apply Forall_app. split; [exact Hc|]. apply Forall_forall. intros x Hx.
  apply repeat_spec in Hx. subst. apply zero_chunk_len.
Qed.

Lemma merkleize_single c : merkleize H [c] = c.
Proof. reflexivity. Qed.

(* a value of its field's type; an empty byte vector would pack to no chunk, hence 0 < n *)
Definition wt (t : ftype) (v : sval) : Prop :=
  match t, v with
  | FUint64, SUint64 _ => True
  | FBytes n, SBytes bs => length bs = n /\ (0 < n)%nat
  | _, _ => False
  end.

Lemma le64_length x : length (le64 x) = 8%nat.
Proof. reflexivity. Qed.

Lemma pack_forall bs : Forall len32 (pack bs).
Proof. unfold pack, chunks. apply chunks_f_forall. apply pad32_length_mod. Qed.

Lemma htr_len v : len32 (htr H v).
Proof. destruct v; cbn [htr]; apply merkleize_len; apply pack_forall. Qed.

Lemma htr_all_len vs : Forall len32 (map (htr H) vs).
Proof. apply Forall_forall. intros c Hc. apply in_map_iff in Hc as (v & <- & _). apply htr_len. Qed.

Lemma htr_container_len vs : len32 (htr_container H vs).
Proof. apply merkleize_len, htr_all_len. Qed.

Lemma htr_small bs : (0 < length bs <= 32)%nat -> htr H (SBytes bs) = pad32 bs.
Proof.
  intros Hb. cbn [htr]. unfold pack. rewrite chunks_single by (apply pad32_small; exact Hb).
  apply merkleize_single.
Qed.

Lemma htr_uint64 x : htr H (SUint64 x) = pad32 (le64 x).
Proof.
  cbn [htr]. unfold pack. rewrite chunks_single; [apply merkleize_single|].
  apply pad32_small. rewrite le64_length. lia.
Qed.

Lemma put_step env s name t v :
  lookup name env = Some v -> wt t v ->
  hstep H env s (put_of (name, t)) = Some {| buf := buf s ++ htr H v; stack := stack s |}.
Proof.
  intros Hl Hw. unfold put_of. cbn [snd fst].
  destruct t as [|n]; destruct v as [x|bs]; cbn [wt] in Hw; try contradiction.
  - cbn [hstep]. rewrite Hl. rewrite htr_uint64. reflexivity.
  - destruct Hw as [Hlen Hpos]. cbn [hstep]. rewrite Hl.
    destruct (Nat.leb (length bs) 32) eqn:E.
    + apply Nat.leb_le in E. rewrite htr_small by lia. reflexivity.
    + reflexivity.
Qed.

Definition mkenv (fs : list (string * ftype)) (vs : list sval) : list (string * sval) :=
  combine (map fst fs) vs.

Lemma lookup_mkenv fs : forall vs f v,
  NoDup (map fst fs) -> In (f, v) (combine fs vs) -> lookup (fst f) (mkenv fs vs) = Some v.
Proof.
  unfold mkenv. induction fs as [|g fs IH]; intros [|w vs] f v Hnd Hin; cbn [map combine lookup] in *; try contradiction.
  inversion Hnd as [|? ? Hnotin Hnd']; subst. destruct Hin as [[= -> ->]|Hin].
  - rewrite String.eqb_refl. reflexivity.
  - destruct (String.eqb_spec (fst g) (fst f)) as [E|_]; [|apply IH; assumption].
    destruct Hnotin. rewrite E. apply in_map. exact (in_combine_l _ _ _ _ Hin).
Qed.

Lemma hrun_puts env fs vs :
  (forall f v, In (f, v) (combine fs vs) -> lookup (fst f) env = Some v) ->
  Forall2 (fun f v => wt (snd f) v) fs vs -> forall s,
  hrun H env s (map put_of fs) = Some {| buf := buf s ++ concat (map (htr H) vs); stack := stack s |}.
Proof.
  intros Henv HF. induction HF as [|[name t] v fs vs Hw _ IH]; intros s.
  - cbn. rewrite app_nil_r. destruct s; reflexivity.
  - cbn [map hrun]. rewrite (put_step env s name t v (Henv _ _ (in_eq _ _)) Hw).
    rewrite IH by (intros f w Hin; apply Henv, in_cons, Hin).
    cbn [buf stack concat map]. rewrite app_assoc. reflexivity.
Qed.

Lemma hrun_app env s p q :
  hrun H env s (p ++ q) = match hrun H env s p with Some s' => hrun H env s' q | None => None end.
Proof.
  revert s. induction p as [|i p IH]; intros s; cbn [app hrun]; [reflexivity|].
  destruct (hstep H env s i); [apply IH|reflexivity].
Qed.

Theorem hash_root_compile fs vs :
  NoDup (map fst fs) -> Forall2 (fun f v => wt (snd f) v) fs vs ->
  hash_root H (compile fs) (mkenv fs vs) = Some (htr_container H vs).
Proof.
  intros Hnd Hwt. unfold hash_root, compile. cbn [hrun hstep buf stack length].
  rewrite hrun_app, (hrun_puts _ fs vs (fun f v => lookup_mkenv fs vs f v Hnd) Hwt).
  cbn [buf stack app hrun hstep firstn skipn]. unfold merkleize_bytes.
  rewrite chunks_concat by apply htr_all_len. fold (htr_container H vs).
  rewrite (htr_container_len vs). reflexivity.
Qed.

End WithHash.

(* ZifyNat switches on the translation of div and mod for every later `lia`, in every file
   that loads this one; it is wanted here only *)
Ltac Zify.zify_convert_to_euclidean_division_equations_flag ::= constr:(false).
