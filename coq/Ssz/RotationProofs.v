(* C17: the model of GetSigningRoot (built from the regenerated hasher programs and
   constants) equals the consensus-spec signing root for every validator index; the baked
   list is well formed; every position is answered with the right message or refused. *)
From Coq Require Import String List ZArith Lia Bool.
Require Import Lib.GoStr Ssz.Sha256 Ssz.Ssz Ssz.SszProofs Ssz.Rotation.
Require Gen.Rotation Gen.Baked Gen.SszPrograms.
Import ListNotations.

(* the regenerated programs and constants are the ones the spec prescribes *)
Lemma gen_prog_BLSToExecutionChange :
  Gen.SszPrograms.BLSToExecutionChange_prog = compile spec_BLSToExecutionChange.
Proof. reflexivity. Qed.
Lemma gen_prog_ForkData : Gen.SszPrograms.ForkData_prog = compile spec_ForkData.
Proof. reflexivity. Qed.
Lemma gen_prog_SigningData : Gen.SszPrograms.SigningData_prog = compile spec_SigningData.
Proof. reflexivity. Qed.
Lemma gen_struct_BLSToExecutionChange :
  Gen.SszPrograms.BLSToExecutionChange_struct = spec_BLSToExecutionChange.
Proof. reflexivity. Qed.
Lemma gen_struct_ForkData : Gen.SszPrograms.ForkData_struct = spec_ForkData.
Proof. reflexivity. Qed.
Lemma gen_struct_SigningData : Gen.SszPrograms.SigningData_struct = spec_SigningData.
Proof. reflexivity. Qed.

Lemma gen_constants :
  Gen.Rotation.DomainBlsToExecutionChange = DOMAIN_BLS_TO_EXECUTION_CHANGE /\
  Gen.Rotation.GenesisForkVersion = GENESIS_FORK_VERSION /\
  Gen.Rotation.GenesisValidatorRoot = MAINNET_GENESIS_VALIDATORS_ROOT /\
  Gen.Rotation.LidoBlsPubKeyBB = LIDO_WITHDRAWAL_BLS_KEY /\
  Gen.Rotation.ToExecutionAddress = LIDO_EXECUTION_ADDRESS.
Proof. repeat split; reflexivity. Qed.

Lemma copy32_id x : length x = 32%nat -> copy32 x = x.
Proof.
  intros Hx. unfold copy32. rewrite firstn_app, Hx, Nat.sub_diag, firstn_O, app_nil_r.
  apply firstn_all2. lia.
Qed.

Local Open Scope string_scope.

Lemma fork_data_root_eq fv gvr :
  length fv = 4%nat -> length gvr = 32%nat ->
  model_fork_data_root fv gvr = Some (spec_compute_fork_data_root fv gvr).
Proof.
  intros Hf Hg. unfold model_fork_data_root, spec_compute_fork_data_root.
  rewrite gen_prog_ForkData.
  apply (hash_root_compile sha256 sha256_length spec_ForkData [SBytes fv; SBytes gvr]).
  - repeat constructor; cbn; intuition discriminate.
  - repeat constructor; lia.
Qed.

Lemma spec_domain_length dt fv gvr : length dt = 4%nat -> length (spec_compute_domain dt fv gvr) = 32%nat.
Proof.
  intros Hd. unfold spec_compute_domain, spec_compute_fork_data_root.
  rewrite app_length, firstn_length, (htr_container_len sha256 sha256_length), Hd. reflexivity.
Qed.

Lemma domain_eq dt fv gvr :
  length dt = 4%nat -> length fv = 4%nat -> length gvr = 32%nat ->
  model_domain dt fv gvr = Some (spec_compute_domain dt fv gvr).
Proof.
  intros Hd Hf Hg. unfold model_domain. rewrite fork_data_root_eq by assumption.
  rewrite copy32_id by (apply spec_domain_length; exact Hd). reflexivity.
Qed.

Lemma bls_root_eq index k a :
  length k = 48%nat -> length a = 20%nat ->
  hash_root sha256 (compile spec_BLSToExecutionChange)
    [("ValidatorIndex", SUint64 index); ("FromBlsPubkey", SBytes k); ("ToExecutionAddress", SBytes a)]
  = Some (spec_bls_change_root index k a).
Proof.
  intros Hk Ha.
  apply (hash_root_compile sha256 sha256_length spec_BLSToExecutionChange [SUint64 index; SBytes k; SBytes a]).
  - repeat constructor; cbn; intuition discriminate.
  - repeat constructor; lia.
Qed.

Lemma signing_data_root_eq o d :
  length o = 32%nat -> length d = 32%nat ->
  hash_root sha256 (compile spec_SigningData) [("ObjectRoot", SBytes o); ("Domain", SBytes d)]
  = Some (spec_compute_signing_root o d).
Proof.
  intros Ho Hd.
  apply (hash_root_compile sha256 sha256_length spec_SigningData [SBytes o; SBytes d]).
  - repeat constructor; cbn; intuition discriminate.
  - repeat constructor; lia.
Qed.

(* C17, first sentence: for EVERY validator index the offered message is the spec's signing root *)
Theorem model_signing_root_spec (index : N) :
  model_signing_root index = Some (spec_signing_root index).
Proof.
  unfold model_signing_root, model_domain_const.
  destruct gen_constants as (-> & -> & -> & -> & ->).
  rewrite domain_eq by (vm_compute; reflexivity).
  rewrite gen_prog_BLSToExecutionChange, gen_prog_SigningData.
  rewrite bls_root_eq by (vm_compute; reflexivity).
  rewrite signing_data_root_eq.
  - unfold spec_signing_root. reflexivity.
  - apply (htr_container_len sha256 sha256_length).
  - apply spec_domain_length. reflexivity.
Qed.

Local Close Scope string_scope.
Local Open Scope Z_scope.

(* The baked list.  The regenerated list is checked by evaluation in ONE pass (every line is parsed once; the kernel's
   own reduction, which coqchk uses, pays per digit).  Everything else is proved about `main ++ [[]]`
   for an arbitrary `main`, so that nothing unfolds the 18 633-entry constant. *)
(* -1 stands for a line that does not parse: below every value that does *)
Definition values_of (main : list (list N)) : list Z :=
  map (fun l => match parse_int64 l with Some v => v | None => -1 end) main.

(* 18446744073709551616 = 2^64 *)
Definition uint64_above (lo : Z) (l : list N) : Prop :=
  exists v, parse_int64 l = Some v /\ lo < v < 18446744073709551616.

(* each line but the last is a uint64 above its predecessor; the last line is empty (the file ends in
   a newline) *)
Fixpoint baked_ok (prev : Z) (ls : list (list N)) : bool :=
  match ls with
  | [] => false
  | [l] => bytes_eqb l []
  | l :: r => match parse_int64 l with
              | Some v => (prev <? v) && (v <? 18446744073709551616) && baked_ok v r
              | None => false
              end
  end.

Lemma baked_ok_spec ls : forall prev, baked_ok prev ls = true ->
  exists main, ls = main ++ [[]] /\ Forall (uint64_above prev) main /\ NoDup (values_of main).
Proof.
  induction ls as [|l r IH]; intros prev H; [discriminate|]. destruct r as [|l' r'].
  - exists []. destruct l; [|discriminate]. repeat constructor.
  - cbn [baked_ok] in H. destruct (parse_int64 l) as [v|] eqn:Ep; [|discriminate].
    apply andb_prop in H as [H Hr]. apply andb_prop in H as [H1 H2]. apply Z.ltb_lt in H1, H2.
    destruct (IH v Hr) as (main & -> & Hall & Hnd). exists (l :: main). split; [reflexivity|]. split.
    + constructor; [exists v; split; [exact Ep|lia]|].
      eapply Forall_impl; [|exact Hall]. intros x (w & Hw & Hb). exists w. split; [exact Hw|lia].
    + cbn [values_of map]. rewrite Ep. constructor; [|exact Hnd].
      (* every later value is above v *)
      intros Hin. apply in_map_iff in Hin as (x & Hx & Hin). rewrite Forall_forall in Hall.
      destruct (Hall x Hin) as (w & Hw & Hb). rewrite Hw in Hx. lia.
Qed.

Section Baked.
Variable main : list (list N).

Lemma positions_ok i :
  Forall (uint64_above (-1)) main -> 0 <= i < Z.of_nat (length main) ->
  exists v, parse_int64 (nth (Z.to_nat i) (main ++ [[]]) []) = Some v /\
            0 <= v < 18446744073709551616 /\
            reconstruct_baked_in (main ++ [[]]) i =
              BOk {| ms_id := nth (Z.to_nat i) (main ++ [[]]) [];
                     ms_file := bakedrange_prefix ++ dec_of_Z i;
                     ms_payload := spec_signing_root (Z.to_N v);
                     ms_baked := true |}.
Proof.
  intros Hmain Hi. unfold reconstruct_baked_in. rewrite app_length, app_nth1 by lia. cbn [length].
  destruct (Z.ltb_spec i 0); [lia|]. destruct (Z.leb_spec (Z.of_nat (length main + 1)) i); [lia|].
  rewrite Forall_forall in Hmain.
  destruct (Hmain (nth (Z.to_nat i) main [])) as (v & Hp & Hv); [apply nth_In; lia|].
  exists v. rewrite Hp. unfold uint64_of_int64. rewrite Z.mod_small, model_signing_root_spec by lia.
  repeat split; lia.
Qed.

(* position |main| holds the empty last line, which does not parse *)
Lemma positions_refused i :
  i < 0 \/ Z.of_nat (length main) <= i -> exists e, reconstruct_baked_in (main ++ [[]]) i = BErr e.
Proof.
  intros Hi. unfold reconstruct_baked_in. rewrite app_length. cbn [length].
  destruct (Z.ltb_spec i 0); [eexists; reflexivity|].
  destruct (Z.leb_spec (Z.of_nat (length main + 1)) i); [eexists; reflexivity|].
  rewrite app_nth2 by lia. replace (Z.to_nat i - length main)%nat with 0%nat by lia.
  eexists; reflexivity.
Qed.
End Baked.

Lemma never_panics lines i : reconstruct_baked_in lines i <> BPanic.
Proof.
  unfold reconstruct_baked_in.
  destruct (i <? 0); [discriminate|].
  destruct (_ <=? i); [discriminate|].
  destruct (parse_int64 _); [|discriminate].
  destruct (model_signing_root _); discriminate.
Qed.

Definition baked_count : Z := 18632.
Notation L := Gen.Baked.baked_lines (only parsing).

Lemma baked_lines_ok : baked_ok (-1) L = true.
Proof. vm_compute. reflexivity. Qed.

Lemma baked_length : Z.of_nat (length L) = 18633.
Proof. vm_compute. reflexivity. Qed.

Lemma baked_shape :
  exists main, L = main ++ [[]] /\ Z.of_nat (length main) = 18632 /\
               Forall (uint64_above (-1)) main /\ NoDup (values_of main).
Proof.
  destruct (baked_ok_spec _ _ baked_lines_ok) as (main & E & Hall & Hnd). exists main.
  pose proof baked_length as Hl. rewrite E, app_length in Hl. cbn [length] in Hl.
  repeat split; auto; lia.
Qed.

Theorem baked_positions_ok :
  forall i, 0 <= i < 18632 ->
  exists v, parse_int64 (nth (Z.to_nat i) L []) = Some v /\
            0 <= v < 18446744073709551616 /\
            reconstruct_baked_in L i =
              BOk {| ms_id := nth (Z.to_nat i) L [];
                     ms_file := bakedrange_prefix ++ dec_of_Z i;
                     ms_payload := spec_signing_root (Z.to_N v);
                     ms_baked := true |}.
Proof.
  destruct baked_shape as (main & -> & Hlen & Hall & _). intros i Hi. apply positions_ok; [exact Hall|lia].
Qed.

Theorem baked_positions_refused :
  forall i, i < 0 \/ 18632 <= i -> exists e, reconstruct_baked_in L i = BErr e.
Proof.
  destruct baked_shape as (main & -> & Hlen & _). intros i Hi. apply positions_refused. lia.
Qed.

Lemma baked_position_answered i :
  0 <= i < 18632 -> exists m, reconstruct_baked_in L i = BOk m.
Proof. intros Hi. destruct (baked_positions_ok i Hi) as (v & _ & _ & Hm). eexists. exact Hm. Qed.
