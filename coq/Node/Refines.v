(* The node's handler refines the dump-level step `round_step` (the function the FSM theorems of
   C05, C06, C07 and C11 are about): whenever processMessage accepts a board message of a stored
   round, the round it persists is exactly `round_step` of the round it loaded, and the operation it
   returns is the one built from round_step's response.  So a fact proved about round_step (who must
   have confirmed, when a batch collects, what cancels a phase) is a fact about what the node stores. *)
From Coq Require Import String List ZArith Bool.
Require Import Fsm.Types Fsm.Engine Fsm.Actions Fsm.Provider Fsm.Loadable Fsm.LivePreserved.
Require Import Node.Types Node.Process Node.Assoc Node.Walk Node.Local.
Import ListNotations.
Local Open Scope string_scope.
Local Open Scope list_scope.

(* continuing in memory = continuing after dump + restore (C19, for every live instance) *)
Lemma do_live_on_dump i ev req i' r x :
  live i -> do_live i ev req = FOk i' r x -> do_on_dump (dump_of i) ev req = SOk (dump_of i') r x.
Proof.
  intros Hl H. destruct (live_restores i Hl) as [Hr Hh]. unfold do_on_dump, do_live, inst_do in *. rewrite Hr, Hh.
  destruct (inst_do_core (handover i) ev req) as [j|j rs rd [|]|]; try discriminate. inversion H; reflexivity.
Qed.

Lemma do_fresh_on_dump d ev req i' r x :
  do_fresh d ev req = FOk i' r x -> do_on_dump d ev req = SOk (dump_of i') r x.
Proof.
  unfold do_fresh, do_on_dump. destruct (from_dump d) as [i0| |]; try discriminate.
  destruct (inst_do i0 ev req) as [j|j rs rd [|]|]; try discriminate. intros H; inversion H; subst. reflexivity.
Qed.

Definition op_of (round : tok) (r : string) (x : option response) : option operation :=
  if mem_str r op_states then
    match x with
    | Some _ => Some {| op_round := round; op_type := r; op_payload := x; op_reinit := None; op_extra := 0%N |}
    | None => None
    end
  else None.

(* carrying out a plan that accepts with a round to save: that round is what the node holds afterwards *)
Lemma exec_saves put r h0 ps i op h' o :
  exec put r h0 (Accept ps (Some (i, op))) = ROk h' o ->
  o = op /\ tget' (ns_rounds (h_st h')) r = Some (dump_of i).
Proof. intros H. inversion H. split; [reflexivity|apply aput_same]. Qed.

(* prop_plan accepts only with the round and the operation it was given *)
Lemma prop_plan_saves put m req h0 ps i op h' o :
  exec put (m_round m) h0 (prop_plan m req ps i op) = ROk h' o ->
  o = op /\ tget' (ns_rounds (h_st h')) (m_round m) = Some (dump_of i).
Proof.
  unfold prop_plan. destruct (String.eqb (m_event m) ev_sgn_start); [|apply exec_saves].
  destruct (m_tasks m) as [[|t ts]|]; destruct req; try discriminate. apply exec_saves.
Qed.

(* a manual hand-over, taken or not *)
Lemma handover_on_dump (c : bool) now ev i r x i' r' x' :
  (if c then do_fresh (dump_of i) ev (RDefault now) else FOk i r x) = FOk i' r' x' ->
  (if c then do_on_dump (dump_of i) ev (RDefault now) else SOk (dump_of i) r x) = SOk (dump_of i') r' x'.
Proof. destruct c; [apply do_fresh_on_dump|intros H; inversion H; reflexivity]. Qed.

(* the FSM stage is round_step up to the restart that follows a collected batch *)
Lemma pm_fsm_round_step now inst ev req i3 r3 x3 :
  live inst -> pm_fsm now inst ev req = FOk i3 r3 x3 ->
  round_step now (dump_of inst) ev req =
  if String.eqb r3 st_partial_collected
  then match do_on_dump (dump_of i3) ev_sgn_restart (RDefault now) with SOk d4 _ _ => SOk d4 r3 x3 | other => other end
  else SOk (dump_of i3) r3 x3.
Proof.
  intros Hl H. unfold pm_fsm in H. unfold round_step.
  destruct (do_live inst ev req) as [i1 r1 x1| |] eqn:E1; try discriminate.
  rewrite (do_live_on_dump _ _ _ _ _ _ Hl E1).
  destruct (if String.eqb r1 st_collected then _ else _) as [i2 r2 x2| |] eqn:E2; try discriminate.
  rewrite (handover_on_dump _ _ _ _ _ _ _ _ _ E2), (handover_on_dump _ _ _ _ _ _ _ _ _ H). reflexivity.
Qed.

Theorem accepted_message_persists_round_step put now st m req h inst h' op :
  live inst ->
  exec put (m_round m) h (tail_plan now st m req inst) = ROk h' op ->
  exists d r x, round_step now (dump_of inst) (m_event m) req = SOk d r x /\
                tget' (ns_rounds (h_st h')) (m_round m) = Some d /\
                op = op_of (m_round m) r x.
Proof.
  intros Hl H.
  (* a plan that accepts comes from the FSM path: one step, or the step that collects and the restart *)
  destruct (tail_planP now st m req inst) as [| |i3 r3 x3 _ Ef Ec|sigs|i3 r3 batch src parts sigs i4 r4 x4 _ Ef Ec _ E4];
    try discriminate.
  - rewrite (pm_fsm_round_step _ _ _ _ _ _ _ Hl Ef), Ec. apply prop_plan_saves in H as [-> Hs].
    do 3 eexists. split; [reflexivity|split; [exact Hs|reflexivity]].
  - rewrite (pm_fsm_round_step _ _ _ _ _ _ _ Hl Ef), Ec, (do_fresh_on_dump _ _ _ _ _ _ E4).
    apply prop_plan_saves in H as [-> Hs]. do 3 eexists. split; [reflexivity|split; [exact Hs|reflexivity]].
Qed.

(* a stored round restores to a live instance that dumps back to what was stored *)
Lemma stored_round_loads st r d0 inst0 :
  tget' (ns_rounds st) r = Some d0 -> load st r = LoadOk inst0 ->
  live inst0 /\ dump_of inst0 = d0 /\ i_dstate inst0 = d_state d0.
Proof.
  intros Hd El. unfold load in El. rewrite Hd in El. destruct (from_dump_dump _ _ El) as [Hdump Hst].
  split; [exact (owned_live _ (restored_is_owned d0 inst0 El))|split; [exact Hdump|exact Hst]].
Qed.

(* the handler saved `round_step` of the dump d0 and returned the operation built from its response *)
Definition persists_round_step (now : Z) (m : message) (d0 : dump) (h' : hs) (op : option operation) : Prop :=
  exists req d r x, m_req m = MFsm req /\ round_step now d0 (m_event m) req = SOk d r x /\
                    tget' (ns_rounds (h_st h')) (m_round m) = Some d /\ op = op_of (m_round m) r x.

(* an accepted message was judged against the round the node could load *)
Lemma accepted_loaded put now h0 m h op :
  process_message put now h0 m = ROk h op -> exists inst0, load (h_st h0) (m_round m) = LoadOk inst0.
Proof.
  rewrite process_message_plan. unfold pm_plan. destruct (pm_headP now (h_st h0) m) as [| |inst0 El _]; try discriminate. eauto.
Qed.

(* a round that is not in a cancelled state: no lazy restart, no early exit, the message goes
   from the signature check straight to the FSM *)
Lemma plain_refines put now st m inst h' op :
  load st (m_round m) = LoadOk inst -> live inst ->
  has_suffix (i_dstate inst) "_error" = false -> has_suffix (i_dstate inst) "_timeout" = false ->
  String.eqb (m_event m) ev_sig_reconstructed = false ->
  String.eqb (m_event m) ev_sig_recon_failed = false ->
  process_message put now {| h_st := st; h_tr := [] |} m = ROk h' op ->
  persists_round_step now m (dump_of inst) h' op.
Proof.
  intros El Hl He Ht E1 E2 H. rewrite process_message_plan in H. unfold pm_plan, pm_head in H. cbn [h_st] in H.
  rewrite El in H. destruct (negb _ && negb _); [discriminate|].
  rewrite (pm_dispatch_plain now m inst He Ht E1 E2) in H. destruct (m_req m) as [req| |] eqn:Er; try discriminate.
  destruct (accepted_message_persists_round_step put now st m req _ inst h' op Hl H) as (d & r & x & Hx).
  exists req, d, r, x. split; [exact Er|exact Hx].
Qed.

(* every accepted FSM message of a stored round that is not in a cancelled state *)
Theorem process_message_refines_round_step put now st m d0 h' op :
  tget' (ns_rounds st) (m_round m) = Some d0 ->
  has_suffix (d_state d0) "_error" = false -> has_suffix (d_state d0) "_timeout" = false ->
  String.eqb (m_event m) ev_sig_reconstructed = false ->
  String.eqb (m_event m) ev_sig_recon_failed = false ->
  process_message put now {| h_st := st; h_tr := [] |} m = ROk h' op ->
  persists_round_step now m d0 h' op.
Proof.
  intros Hd He Ht E1 E2 H. destruct (accepted_loaded _ _ _ _ _ _ H) as [inst El].
  destruct (stored_round_loads _ _ _ _ Hd El) as (Hl & Hdump & Hst). rewrite <- Hst in He, Ht. rewrite <- Hdump.
  exact (plain_refines put now st m inst h' op El Hl He Ht E1 E2 H).
Qed.

Lemma created_live : live created /\ dump_of created = initial_dump_of.
Proof.
  (* `created` is what restoring the initial dump gives (closed look-ups, by conversion) *)
  split; [|reflexivity]. exact (owned_live _ (restored_is_owned initial_dump_of created eq_refl)).
Qed.

(* the first message of a round the node has not seen: the handler starts from the initial dump *)
Theorem first_message_refines_round_step put now st m h' op :
  tget' (ns_rounds st) (m_round m) = None ->
  String.eqb (m_event m) ev_sig_reconstructed = false ->
  String.eqb (m_event m) ev_sig_recon_failed = false ->
  process_message put now {| h_st := st; h_tr := [] |} m = ROk h' op ->
  persists_round_step now m initial_dump_of h' op.
Proof.
  intros Hd E1 E2 H. destruct (accepted_loaded _ _ _ _ _ _ H) as [inst El].
  pose proof El as Ec. unfold load in Ec. cbn [h_st] in Ec. rewrite Hd in Ec.
  destruct (N.eqb (m_round m) 0); [discriminate|]. rewrite create_created in Ec. inversion Ec; subst inst.
  destruct created_live as [Hl Hdump]. rewrite <- Hdump.
  exact (plain_refines put now st m created h' op El Hl eq_refl eq_refl E1 E2 H).
Qed.

(* non-vacuity: the confirmation of an invitation on the example node - the hypotheses hold, the
   message is accepted, and the persisted round is round_step of the stored one and differs from it *)
Example refines_example :
  let st := run_msgs (empty_node 2%N 3%N) [(777%Z, ex_prop 9%N)] in
  let m := ex_confirm 9%N in
  match tget' (ns_rounds st) 9%N, process_message true 777%Z {| h_st := st; h_tr := [] |} m, m_req m with
  | Some d0, ROk h' op, MFsm req =>
      has_suffix (d_state d0) "_error" = false /\ has_suffix (d_state d0) "_timeout" = false /\
      match round_step 777%Z d0 (m_event m) req with
      | SOk d _ _ => tget' (ns_rounds (h_st h')) 9%N = Some d /\ d <> d0
      | _ => False
      end
  | _, _, _ => False
  end.
Proof. vm_compute. repeat split; discriminate. Qed.

(* the general case: a stored round in ANY state, the lazy restart included *)
Lemma do_live_live i ev req i' r x : live i -> do_live i ev req = FOk i' r x -> live i'.
Proof.
  intros Hl H. unfold do_live in H. destruct (inst_do i ev req) as [j|j rs rd [|]|] eqn:E; try discriminate.
  inversion H; subst. eapply inst_do_live; eassumption.
Qed.

(* the dump the handler starts from: the stored one, or - when the round was found in a cancelled
   signing state - the stored one after the restart event(s) *)
Inductive restarts (now : Z) : dump -> dump -> Prop :=
| rs_refl d : restarts now d d
| rs_step d d' d'' r x : do_on_dump d ev_sgn_restart (RDefault now) = SOk d' r x -> restarts now d' d'' -> restarts now d d''.

Lemma restarted_restarts now i i' :
  live i -> restarted now i i' -> live i' /\ restarts now (dump_of i) (dump_of i').
Proof.
  intros Hl H. induction H as [i|i i1 i2 Hr _ IH]; [split; [exact Hl|apply rs_refl]|].
  unfold restart in Hr. destruct (do_live i ev_sgn_restart (RDefault now)) as [j r x| |] eqn:E; try discriminate.
  inversion Hr; subst j. destruct (IH (do_live_live _ _ _ _ _ _ Hl E)) as [Hl2 Hrs]. split; [exact Hl2|].
  eapply rs_step; [exact (do_live_on_dump _ _ _ _ _ _ Hl E)|exact Hrs].
Qed.

Theorem process_message_refines_round_step_any_state put now st m d0 h' op :
  tget' (ns_rounds st) (m_round m) = Some d0 ->
  String.eqb (m_event m) ev_sig_reconstructed = false ->
  process_message put now {| h_st := st; h_tr := [] |} m = ROk h' op ->
  (* a cancelled key generation / proposal absorbs the message without a write *)
  (h' = {| h_st := st; h_tr := [] |} /\ op = None) \/
  exists req d1 d r x, m_req m = MFsm req /\ restarts now d0 d1 /\
                       round_step now d1 (m_event m) req = SOk d r x /\
                       tget' (ns_rounds (h_st h')) (m_round m) = Some d /\ op = op_of (m_round m) r x.
Proof.
  intros Hd E1. rewrite process_message_plan. unfold pm_plan. cbn [h_st].
  destruct (pm_headP now st m) as [| |inst0 El _]; try discriminate.
  destruct (stored_round_loads _ _ _ _ Hd El) as (Hlive & Hdump & _).
  destruct (pm_dispatchP now m inst0) as [| |_|l F _|inst req _ _ Hrs Hreq]; try discriminate; [|congruence|].
  - intros H. inversion H. left. auto.
  - intros H. destruct (restarted_restarts _ _ _ Hlive Hrs) as [Hl Hrd]. rewrite Hdump in Hrd.
    destruct (accepted_message_persists_round_step put now st m req _ inst h' op Hl H) as (d & r & x & Hr & Hs & Hop).
    right. exists req, (dump_of inst), d, r, x. auto.
Qed.
