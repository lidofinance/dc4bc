(* C20, the adaptation: the loop of Adapt.v as a recursion that puts its output in front (adapt_eq);
   the four statements of Props/C20.v are the four adapt_from_* lemmas at fixed = [], off = 0. *)
From Coq Require Import String List ZArith Bool Lia.
Require Import Fsm.Types Node.Adapt.
Import ListNotations.
Local Open Scope string_scope.
Local Open Scope list_scope.

Fixpoint adapt_from (id : tok) (fixed : list tok) (off : Z) (msgs : list amsg) : list amsg :=
  match msgs with
  | [] => []
  | m :: r =>
      if needs_fix id fixed m
      then self_confirmation m off :: renumber m (off + 1) :: adapt_from id (am_sender m :: fixed) (off + 2) r
      else renumber m off :: adapt_from id fixed (off + 1) r
  end.

Lemma adapt_fold id msgs : forall fixed off out,
  snd (fold_left (adapt_step id) msgs (fixed, off, out)) = out ++ adapt_from id fixed off msgs.
Proof.
  induction msgs as [|m r IH]; intros fixed off out; cbn [fold_left adapt_step adapt_from].
  - symmetry. apply app_nil_r.
  - destruct (needs_fix id fixed m); rewrite IH, <- app_assoc; reflexivity.
Qed.

Lemma adapt_eq id msgs : adapt id msgs = adapt_from id [] 0 msgs.
Proof. apply adapt_fold. Qed.

Lemma needs_fix_round id fixed m : needs_fix id fixed m = true -> am_round m = id.
Proof.
  unfold needs_fix. destruct (N.eqb_spec (am_round m) id) as [E|_].
  - intros _. exact E.
  - discriminate.
Qed.

Definition offsets_are_positions (l : list amsg) : Prop :=
  forall i m, nth_error l i = Some m -> am_offset m = Z.of_nat i.

Lemma adapt_from_offsets id msgs : forall fixed off i m,
  nth_error (adapt_from id fixed off msgs) i = Some m -> am_offset m = (off + Z.of_nat i)%Z.
Proof.
  induction msgs as [|a r IH]; intros fixed off i m; cbn [adapt_from].
  - destruct i; discriminate.
  - destruct (needs_fix id fixed a).
    + destruct i as [|[|i]]; cbn [nth_error].
      * intros [= <-]. cbn. lia.
      * intros [= <-]. cbn. lia.
      * intros H. apply IH in H. lia.
    + destruct i as [|i]; cbn [nth_error].
      * intros [= <-]. cbn. lia.
      * intros H. apply IH in H. lia.
Qed.

Definition forget_offset (m : amsg) : amsg := renumber m 0.

Lemma adapt_from_originals id msgs : forall fixed off,
  map forget_offset (filter (fun m => negb (am_synthetic m)) (adapt_from id fixed off msgs)) =
  map forget_offset (filter (fun m => negb (am_synthetic m)) msgs).
Proof.
  induction msgs as [|a r IH]; intros fixed off; cbn [adapt_from].
  - reflexivity.
  - (* the self-confirmation is filtered out; renumber a _ is kept exactly when a is *)
    destruct (needs_fix id fixed a); cbn [filter self_confirmation renumber am_synthetic negb];
      destruct (am_synthetic a); cbn [negb map]; rewrite IH; reflexivity.
Qed.

Lemma adapt_from_synthetic id x msgs :
  Forall (fun m => am_synthetic m = false) msgs -> am_synthetic x = true ->
  forall fixed off, In x (adapt_from id fixed off msgs) ->
  am_round x = id /\ am_event x = ev_deal /\ am_recipient x = am_sender x.
Proof.
  intros Hms Hx. induction Hms as [|a r Ha _ IH]; intros fixed off; cbn [adapt_from].
  - intros [].
  - destruct (needs_fix id fixed a) eqn:En.
    + intros [<-|[<-|H]].
      * split; [exact (needs_fix_round _ _ _ En)|split; reflexivity].
      * cbn in Hx. congruence.
      * exact (IH _ _ H).
    + intros [<-|H].
      * cbn in Hx. congruence.
      * exact (IH _ _ H).
Qed.

(* the self-confirmations in s's name; whether s has a deal in round id *)
Definition synthetic_of (s : tok) (l : list amsg) : nat :=
  length (filter (fun m => am_synthetic m && N.eqb (am_sender m) s) l).
Definition has_deal (id s : tok) (l : list amsg) : bool :=
  existsb (fun m => N.eqb (am_round m) id && N.eqb (am_sender m) s && String.eqb (am_event m) ev_deal) l.

Definition deal_of (id s : tok) (m : amsg) : bool :=
  N.eqb (am_round m) id && N.eqb (am_sender m) s && String.eqb (am_event m) ev_deal.

Lemma has_deal_cons id s m r : has_deal id s (m :: r) = deal_of id s m || has_deal id s r.
Proof. reflexivity. Qed.

(* m gets a self-confirmation in s's name exactly when it is a deal of s in the round and s is not served yet *)
Lemma needs_fix_for id s fixed m :
  needs_fix id fixed m && N.eqb (am_sender m) s = deal_of id s m && negb (existsb (N.eqb s) fixed).
Proof.
  unfold needs_fix, deal_of. destruct (N.eqb_spec (am_sender m) s) as [<-|_].
  - destruct (N.eqb (am_round m) id), (existsb (N.eqb (am_sender m)) fixed), (String.eqb (am_event m) ev_deal); reflexivity.
  - rewrite !andb_false_r. reflexivity.
Qed.

Lemma synthetic_of_cons s x l :
  synthetic_of s (x :: l) = (Nat.b2n (am_synthetic x && N.eqb (am_sender x) s) + synthetic_of s l)%nat.
Proof. unfold synthetic_of. cbn [filter]. destruct (am_synthetic x && N.eqb (am_sender x) s); reflexivity. Qed.

Lemma adapt_from_count id s msgs :
  Forall (fun m => am_synthetic m = false) msgs -> forall fixed off,
  synthetic_of s (adapt_from id fixed off msgs) = Nat.b2n (negb (existsb (N.eqb s) fixed) && has_deal id s msgs).
Proof.
  induction 1 as [|a r Ha _ IH]; intros fixed off; cbn [adapt_from].
  - rewrite andb_false_r. reflexivity.
  - rewrite has_deal_cons. pose proof (needs_fix_for id s fixed a) as K.
    destruct (needs_fix id fixed a); cbn [andb] in K.
    + rewrite !synthetic_of_cons, IH. cbn [self_confirmation renumber am_synthetic am_sender existsb].
      rewrite Ha, (N.eqb_sym s), K.
      destruct (deal_of id s a), (existsb (N.eqb s) fixed), (has_deal id s r); reflexivity.
    + rewrite synthetic_of_cons, IH. cbn [renumber am_synthetic]. rewrite Ha.
      destruct (deal_of id s a), (existsb (N.eqb s) fixed); try discriminate K; reflexivity.
Qed.
