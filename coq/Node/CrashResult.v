(* C13: a node killed INSIDE the handling of an operation result (executeOperation: the result's
   messages are posted one by one, then the operation is retired - tombstone, then pool).  Wherever
   the process dies, the operation is still pending (the answer can be submitted again) or every
   message of the answer is on the board: an answer is never lost, at worst posted twice. *)
From Coq Require Import String List Bool.
Require Import Fsm.Types Node.Types Node.Process Node.Facts Node.Crash.
Import ListNotations.
Local Open Scope string_scope.
Local Open Scope list_scope.

Definition out_of (user : tok) (rm : res_msg) : out_msg :=
  {| o_round := rm_round rm; o_event := rm_event rm; o_sender := user;
     o_recipient := rm_recipient rm; o_sigs := []; o_data := rm_data rm |}.

Definition is_send (w : write) : bool := match w with WSend _ => true | _ => false end.
Definition is_pool_write (w : write) : bool := match w with WDeleted _ | WOps _ => true | _ => false end.

Lemma sends_are_sends user msgs : forallb is_send (sends_of user msgs) = true.
Proof. induction msgs as [|m r IH]; [reflexivity|exact IH]. Qed.

Lemma sends_keep_pool tr st : forallb is_send tr = true ->
  ns_ops (fold_left apply_write tr st) = ns_ops st /\ ns_deleted (fold_left apply_write tr st) = ns_deleted st.
Proof.
  intros H. split.
  - apply (fold_writes_keep ns_ops is_send); [|exact H]. intros s w Hw. destruct w; try discriminate; reflexivity.
  - apply (fold_writes_keep ns_deleted is_send); [|exact H]. intros s w Hw. destruct w; try discriminate; reflexivity.
Qed.

Lemma pool_writes_keep_board tr st : forallb is_pool_write tr = true ->
  ns_board (fold_left apply_write tr st) = ns_board st.
Proof.
  apply (fold_writes_keep ns_board is_pool_write). intros s w Hw. destruct w; try discriminate; reflexivity.
Qed.

Lemma board_after_sends user msgs : forall st,
  ns_board (fold_left apply_write (sends_of user msgs) st) = ns_board st ++ map (out_of user) msgs.
Proof.
  induction msgs as [|m r IH]; intros st; [cbn; rewrite app_nil_r; reflexivity|].
  (* `sends_of` spells the posted message out; `out_of` is that term *)
  change (sends_of user (m :: r)) with (WSend (out_of user m) :: sends_of user r). cbn [fold_left map].
  rewrite IH. cbn [apply_write ns_board]. rewrite <- app_assoc. reflexivity.
Qed.

Theorem killed_inside_execute st x h k hc u :
  execute_operation {| h_st := st; h_tr := [] |} x = ROk h tt -> ox_event x <> ev_processed ->
  crash_after st k (execute_operation {| h_st := st; h_tr := [] |} x) = ROk hc u ->
  (* the operation is as pending as it was: the same answer will be accepted again *)
  (ns_ops (h_st hc) = ns_ops st /\ ns_deleted (h_st hc) = ns_deleted st)
  \/
  (* or every message of the answer is on the board *)
  ns_board (h_st hc) = ns_board st ++ map (out_of (ns_user st)) (ox_msgs x).
Proof.
  intros Hx Hnp Hc. destruct (execute_operation_ok st x h Hx) as (_ & stored & _ & _ & _ & _ & _ & Htr).
  destruct (Htr Hnp) as (d & o & Etr).
  rewrite (crash_after_state _ _ _ _ _ Hc), Hx. cbn [trace_of apply_write ns_ops ns_deleted ns_board].
  (* what the crash keeps is a prefix of the trace (the postings, then the two writes that retire):
     a prefix of the postings, or all of them and some of the rest *)
  destruct (take_durable_prefix k (h_tr h)) as [rest E]. set (kept := take_durable k (h_tr h)) in *.
  rewrite Etr in E. apply app_eq_app in E as [l [[E1 E2]|[E1 E2]]].
  - left. apply sends_keep_pool.
    pose proof (sends_are_sends (ns_user st) (ox_msgs x)) as Hs. rewrite E1, forallb_app in Hs.
    exact (proj1 (andb_prop _ _ Hs)).
  - right. rewrite E1, fold_left_app, pool_writes_keep_board; [apply board_after_sends|].
    assert (Hl : forallb is_pool_write (l ++ rest) = true) by (rewrite <- E2; reflexivity).
    rewrite forallb_app in Hl. exact (proj1 (andb_prop _ _ Hl)).
Qed.
