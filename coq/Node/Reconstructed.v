(* C07 / C01 (node level): the answer that completes a batch makes the node broadcast exactly what
   `reconstruct` computes from the collected partial signatures, and every node that handles that
   broadcast holds each of its signatures in its signature store afterwards. *)
From Coq Require Import String List ZArith Bool.
Require Import Fsm.Types Fsm.Actions Fsm.Provider Node.Types Node.Process Node.Assoc Node.Walk Node.ExportProofs.
Import ListNotations.
Local Open Scope string_scope.
Local Open Scope list_scope.

Definition holds (store : sigstore) (s : rsig) : Prop :=
  exists b e, tget' store (rs_batch s) = Some b /\ tget' b (rs_msgid s) = Some e /\ In s e.

Definition same_slot (x s : rsig) : bool :=
  N.eqb (rs_batch x) (rs_batch s) && N.eqb (rs_msgid x) (rs_msgid s) && N.eqb (rs_user x) (rs_user s).

Lemma add_entry_in l s : In s (add_entry l s).
Proof.
  induction l as [|x r IH]; cbn [add_entry]; [left; reflexivity|].
  destruct (N.eqb (rs_user x) (rs_user s)); [left; reflexivity|right; exact IH].
Qed.

Lemma add_entry_keeps l s x : In x l -> N.eqb (rs_user x) (rs_user s) = false -> In x (add_entry l s).
Proof.
  intros Hin Hne. induction l as [|y r IH]; [destruct Hin|]. cbn [add_entry].
  destruct Hin as [->|Hin].
  - rewrite Hne. left; reflexivity.
  - destruct (N.eqb (rs_user y) (rs_user s)); [right; exact Hin|right; apply IH; exact Hin].
Qed.

Lemma holds_entries store s : holds store s <-> In s (entries store (rs_batch s) (rs_msgid s)).
Proof.
  unfold holds, entries. split.
  - intros (b & e & -> & -> & Hin). exact Hin.
  - destruct (tget' store (rs_batch s)) as [b|]; [|intros []].
    destruct (tget' b (rs_msgid s)) as [e|] eqn:He; [|intros []]. intros Hin. exists b, e. auto.
Qed.

Lemma add_sig_holds store s : holds (add_sig store s) s.
Proof. apply holds_entries. rewrite entries_add_sig, !N.eqb_refl. apply add_entry_in. Qed.

Lemma add_sig_keeps store s x : holds store x -> same_slot x s = false -> holds (add_sig store s) x.
Proof.
  unfold same_slot. rewrite !holds_entries, entries_add_sig, (N.eqb_sym (rs_batch s)), (N.eqb_sym (rs_msgid s)).
  intros Hin Hslot. destruct (N.eqb (rs_batch x) (rs_batch s) && N.eqb (rs_msgid x) (rs_msgid s)); [|exact Hin].
  apply add_entry_keeps; [exact Hin|exact Hslot].
Qed.

(* a list of signatures in which no slot (batch, message id, user) occurs twice: after storing the
   list, the store holds every one of them - and everything it held before in other slots *)
Fixpoint slots_distinct (l : list rsig) : bool :=
  match l with [] => true | s :: r => negb (existsb (fun x => same_slot s x) r) && slots_distinct r end.

Lemma fold_add_sig_keeps l store x :
  holds store x -> existsb (fun s => same_slot x s) l = false -> holds (fold_left add_sig l store) x.
Proof.
  revert store. induction l as [|s r IH]; intros store H Hn; [exact H|].
  apply orb_false_iff in Hn as [Hs Hr].
  apply IH; [apply add_sig_keeps; assumption|exact Hr].
Qed.

Lemma fold_add_sig_holds l store s :
  slots_distinct l = true -> In s l -> holds (fold_left add_sig l store) s.
Proof.
  revert store. induction l as [|y r IH]; intros store Hd Hin; [destruct Hin|]. cbn [fold_left].
  apply andb_true_iff in Hd as [Hy Hr].
  destruct Hin as [->|Hin].
  - apply fold_add_sig_keeps; [apply add_sig_holds|]. apply negb_true_iff in Hy. exact Hy.
  - apply IH; assumption.
Qed.

Definition stamped (m : message) (l : list rsig) : list rsig :=
  map (fun s => {| rs_file := rs_file s; rs_batch := rs_batch s; rs_msgid := rs_msgid s;
                   rs_payload := rs_payload s; rs_sig := rs_sig s;
                   rs_user := m_sender m; rs_round := m_round m |}) l.

Definition round_store (st : nstate) (r : tok) : sigstore :=
  match tget' (ns_sigs st) r with Some s => s | None => [] end.

(* every accepted `signature_reconstructed` message: the node's store for the round holds each
   signature of the message (under the sender's name), whatever it held before *)
Theorem reconstructed_message_is_stored put now st m h' o :
  String.eqb (m_event m) ev_sig_reconstructed = true ->
  process_message put now {| h_st := st; h_tr := [] |} m = ROk h' o ->
  exists l, m_req m = MSigs (Some l) /\ l <> [] /\ o = None /\
    (slots_distinct (stamped m l) = true ->
     forall s, In s (stamped m l) -> holds (round_store (h_st h') (m_round m)) s) /\
    (forall r', r' <> m_round m -> tget' (ns_sigs (h_st h')) r' = tget' (ns_sigs st) r').
Proof.
  intros Hev. rewrite process_message_plan. unfold pm_plan. cbn [h_st].
  destruct (pm_headP now st m) as [| |inst0 _ _]; try discriminate.
  (* of the answers of pm_dispatch only `HSigs (x :: l)` is accepted here: the other events are excluded by Hev *)
  destruct (pm_dispatchP now m inst0) as [| |F|[|x l] _ Hreq|? ? F]; try discriminate; try congruence.
  intros H. inversion H; subst h' o. clear H.
  exists (x :: l). split; [exact Hreq|]. split; [discriminate|]. split; [reflexivity|].
  unfold round_store, do_pre. cbn [pre_write emit h_st apply_write ns_sigs]. split.
  - intros Hd s Hin. rewrite aput_same. apply (fold_add_sig_holds (stamped m (x :: l))); assumption.
  - intros r' Hne. apply aput_other. congruence.
Qed.

Definition broadcast_of (h : hs) (m : message) (sigs : list rsig) : out_msg :=
  {| o_round := m_round m; o_event := ev_sig_reconstructed; o_sender := ns_user (h_st h); o_recipient := 0%N;
     o_sigs := sigs; o_data := 0%N |}.

(* when the FSM answers `partial signs collected` to an authentic answer, the node
   - reconstructs from exactly the collected contributions of the response,
   - sends one `signature_reconstructed` message carrying exactly those signatures,
   - restarts the round for the next batch and saves it,
   and when the reconstruction fails it writes nothing at all *)
Theorem collecting_answer_is_broadcast put now m req h inst i1 batch src parts :
  sender_is_participant (i_payload inst) (m_sender m) req = true ->
  String.eqb (m_event m) ev_sgn_start = false ->
  do_live inst (m_event m) req = FOk i1 st_partial_collected (Some (RespSigningProcess batch src parts)) ->
  match reconstruct (h_st h) (m_round m) (i_payload i1) batch src parts with
  | Some sigs =>
      match do_fresh (dump_of i1) ev_sgn_restart (RDefault now) with
      | FOk i4 _ _ => pm_tail put now m req h inst =
                      ROk (save_fsm (emit h (WSend (broadcast_of h m sigs))) (m_round m) (dump_of i4)) None
      | FErr => pm_tail put now m req h inst = RErr (emit h (WSend (broadcast_of h m sigs)))
      | FPanic => pm_tail put now m req h inst = RPanic
      end
  | None => pm_tail put now m req h inst = RErr h
  end.
Proof.
  intros Hs Hev Hdo. rewrite pm_tail_plan.
  (* the collected state is neither of the hand-over states, nor one that issues an operation *)
  assert (Hf : pm_fsm now inst (m_event m) req = FOk i1 st_partial_collected (Some (RespSigningProcess batch src parts)))
    by (unfold pm_fsm; rewrite Hdo; reflexivity).
  unfold tail_plan. rewrite Hs, Hf. change (String.eqb st_partial_collected st_partial_collected) with true.
  destruct (reconstruct _ _ _ _ _ _) as [sigs|]; [|reflexivity].
  destruct (do_fresh _ _ _) as [i4 r4 x4| |]; try reflexivity.
  (* `put_opt` looks at `put` before it looks at the (absent) operation *)
  unfold prop_plan. rewrite Hev. destruct put; reflexivity.
Qed.

(* what `reconstruct` produces meets the side condition: one signature per message id *)
Lemma group_signs_nodup parts acc : NoDup (map fst acc) -> NoDup (map fst (group_signs parts acc)).
Proof.
  revert acc. induction parts as [|[z [b signs]] r IH]; intros acc Hn; [exact Hn|].
  apply IH. clear IH. revert acc Hn. induction signs as [|s ss IHs]; intros acc Hn; [exact Hn|].
  apply IHs. apply aput_nodup. exact Hn.
Qed.

Lemma reconstruct_msgids st round p batch src parts sigs :
  reconstruct st round p batch src parts = Some sigs ->
  NoDup (map rs_msgid sigs) /\ forall s, In s sigs -> rs_batch s = batch /\ rs_round s = round.
Proof.
  unfold reconstruct. destruct (match tget' (ns_srcs st) round with Some m0 => tget' m0 src | None => None end) as [tasks|]; [|discriminate].
  destruct (p_dkg p) as [dk|]; [|discriminate].
  intros H.
  (* the signatures come out one per group, in the order of the groups, each under its group's id *)
  assert (E : map rs_msgid sigs = map fst (group_signs parts []) /\
              forall s, In s sigs -> rs_batch s = batch /\ rs_round s = round).
  { revert sigs H. generalize (group_signs parts []). intros groups.
    induction groups as [|g gs IH]; intros sigs; cbn [fold_right map].
    - intros H; inversion H. split; [reflexivity|intros s []].
    - destruct (recover _ _ _ _) as [sg|]; [|discriminate].
      destruct (fold_right _ _ gs) as [l|]; [|discriminate]. intros H; inversion H; subst sigs.
      destruct (IH l eq_refl) as [E1 E2]. split; [cbn [map rs_msgid]; rewrite E1; reflexivity|].
      intros s [<-|Hin]; [split; reflexivity|exact (E2 s Hin)]. }
  destruct E as [E1 E2]. rewrite E1. split; [apply group_signs_nodup, NoDup_nil|exact E2].
Qed.

Lemma stamped_slots_distinct m l :
  NoDup (map rs_msgid l) -> slots_distinct (stamped m l) = true.
Proof.
  induction l as [|s r IH]; intros Hn; [reflexivity|]. cbn [stamped map slots_distinct].
  inversion Hn as [|? ? Hnot Hr]; subst. fold (stamped m r). rewrite (IH Hr), andb_true_r.
  apply negb_true_iff. apply not_true_is_false. intros He. apply existsb_exists in He as (x & Hin & Hs).
  apply in_map_iff in Hin as (y & <- & Hy).
  unfold same_slot in Hs. cbn in Hs. apply andb_true_iff in Hs as [Hs _]. apply andb_true_iff in Hs as [_ Hs].
  apply N.eqb_eq in Hs. apply Hnot. rewrite Hs. apply in_map. exact Hy.
Qed.
