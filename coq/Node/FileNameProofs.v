(* C18: the name of the file an operation travels in (Node/FileName.v) consists of kept characters
   only, whatever bytes its identifiers are; an identifier of kept characters goes through unchanged. *)
From Coq Require Import String List ZArith Bool Lia ZifyBool.
Require Import Lib.GoStr Node.FileName.
Import ListNotations.
Local Open Scope N_scope.

(* every byte fileNamePart puts out is one of the kept characters - whatever bytes come in *)
Lemma file_name_part_fuel_safe fuel s : forallb safe_char (file_name_part_fuel fuel s) = true.
Proof.
  revert s. induction fuel as [|f IH]; intros s; [reflexivity|]. destruct s as [|b0 r]; [reflexivity|].
  cbn [file_name_part_fuel forallb]. rewrite IH, andb_true_r.
  destruct (b0 <? 128); cbn [andb]; [|reflexivity]. destruct (safe_char b0) eqn:E; [exact E|reflexivity].
Qed.
Theorem file_name_part_safe s : forallb safe_char (file_name_part s) = true.
Proof. apply file_name_part_fuel_safe. Qed.

(* in particular no path separator (47), no NUL, no backslash (92), nothing outside '-' (45) .. 'z' (122) *)
Lemma safe_char_not_separator b : safe_char b = true -> b <> 47 /\ b <> 0 /\ b <> 92 /\ 45 <= b <= 122.
Proof. unfold safe_char, in_range. lia. Qed.

(* the fixed pieces of the name are closed strings: checked by evaluation *)
Lemma description_safe k : forallb safe_char (description k) = true.
Proof. destruct k; vm_compute; reflexivity. Qed.
Lemma step_safe k : forallb safe_char (dec_of_Z (step_number k)) = true.
Proof. destruct k; vm_compute; reflexivity. Qed.
Lemma batch_part_safe batch :
  forallb safe_char (match batch with Some b => str "_signing_id_" ++ file_name_part b | None => [] end) = true.
Proof. destruct batch as [b|]; [|reflexivity]. rewrite forallb_app, file_name_part_safe. reflexivity. Qed.

(* the whole file name consists of kept characters only: it names a file IN the folder it is joined
   to, whatever the round identifier, the operation identifier and the batch identifier are *)
Theorem file_name_safe k round id batch : forallb safe_char (file_name k round id batch) = true.
Proof.
  unfold file_name.
  rewrite !forallb_app, !file_name_part_safe, batch_part_safe, step_safe, description_safe. reflexivity.
Qed.

Lemma safe_is_ascii b : safe_char b = true -> b <? 128 = true.
Proof. unfold safe_char, in_range. lia. Qed.

(* an identifier made of kept characters goes through unchanged (one byte per step: the length is
   fuel enough) *)
Lemma file_name_part_fuel_keeps fuel s :
  (length s <= fuel)%nat -> forallb safe_char s = true -> file_name_part_fuel fuel s = s.
Proof.
  revert s. induction fuel as [|f IH]; intros s Hl Hs.
  - destruct s; [reflexivity|cbn in Hl; lia].
  - destruct s as [|b0 r]; [reflexivity|]. cbn [forallb] in Hs. apply andb_prop in Hs as [Hb Hr].
    cbn [file_name_part_fuel rune_width]. rewrite (safe_is_ascii b0 Hb), Hb.
    cbn [andb skipn]. f_equal. apply IH; [cbn in Hl; lia|exact Hr].
Qed.
