(* processMessage in two halves: what it DECIDES (a function of the message and of the little it
   reads of the node: the round's dump, the verification switch, the batch sources of the round) and
   what it then WRITES (at most a broadcast, a batch source, signatures; then pool and round).
   process_message, pm_tail and pm_prop are walked once each, for `process_message_plan`,
   `pm_tail_plan` and `pm_prop_plan`; facts that hold of every plan are proved on `exec`, facts
   about the path taken are read off the stages of `pm_plan` (`pm_headP`, `pm_dispatchP`,
   `pm_dispatch_plain`, `tail_planP`). *)
From Coq Require Import String List ZArith Bool.
Require Import Lib.ListFacts Fsm.Types Fsm.Engine Fsm.Actions Fsm.Provider Node.Types Node.Process.
Import ListNotations.
Local Open Scope string_scope.
Local Open Scope list_scope.

Definition load (st : nstate) (r : tok) : load_res :=
  match tget' (ns_rounds st) r with
  | Some d => from_dump d
  | None => if N.eqb r 0 then LoadErr else create
  end.

(* state_machines.Create on the regenerated tables *)
Definition created : instance :=
  {| i_mach := Gen.Tables.pool_entry_machine; i_cur := "__idle"; i_dstate := "__idle"; i_payload := empty_payload |}.
Lemma create_created : create = LoadOk created.
Proof. vm_compute. reflexivity. Qed.

Definition as_res (h : hs) (x : load_res) : res instance :=
  match x with LoadOk i => ROk h i | LoadErr => RErr h | LoadPanic => RPanic end.

Lemma as_res_if (c : bool) h x y : (if c then as_res h x else as_res h y) = as_res h (if c then x else y).
Proof. destruct c; reflexivity. Qed.

Lemma get_instance_load h r : get_instance h r true = as_res h (load (h_st h) r).
Proof.
  unfold get_instance, load. destruct (tget' _ _); [reflexivity|]. destruct (N.eqb r 0); reflexivity.
Qed.

Lemma from_dump_dump d i : from_dump d = LoadOk i -> dump_of i = d /\ i_dstate i = d_state d.
Proof.
  unfold from_dump. destruct (machine_by_state (d_state d)); [|discriminate].
  destruct (copy_with_state_ok _ _); [|discriminate]. intros H; inversion H; subst.
  destruct d; split; reflexivity.
Qed.

(* the lazy restart of a round found cancelled *)
Definition restart (now : Z) (inst : instance) : load_res :=
  match do_live inst ev_sgn_restart (RDefault now) with
  | FOk i' _ _ => LoadOk i' | FErr => LoadErr | FPanic => LoadPanic
  end.

Lemma pm_restart_restart now m h inst : pm_restart now m h inst = as_res h (restart now inst).
Proof. unfold pm_restart, restart. destruct (do_live _ _ _); reflexivity. Qed.

(* stage 1: up to the FSM call.  Nothing is written on the way *)
Inductive head :=
| HErr | HPanic
| HNone                                      (* accepted, nothing to do *)
| HSigs (l : list rsig)                      (* reconstructed signatures to store, once stamped *)
| HFsm (inst : instance) (req : request).    (* the instance (restarted if need be) the request goes to *)

(* `stamp`, and `pm_op` and `stub` below, name terms that the model spells out in place; the properties
   are stated with `Reconstructed.stamped`, `Refines.op_of` and `ExportNode.stub_of`, defined
   downstream and convertible with them *)
Definition stamp (m : message) (s : rsig) : rsig :=
  {| rs_file := rs_file s; rs_batch := rs_batch s; rs_msgid := rs_msgid s; rs_payload := rs_payload s;
     rs_sig := rs_sig s; rs_user := m_sender m; rs_round := m_round m |}.

Definition dkg_failed (p : payload) : bool :=
  match p_dkg p with
  | Some dk => existsb (fun x => match dp_error (snd x) with Some _ => true | None => false end) (dc_quorum dk)
  | None => false
  end.
Definition has_sgn (p : payload) : bool := match p_sgn p with Some _ => true | None => false end.

Definition pm_dispatch (now : Z) (m : message) (inst : instance) : head :=
  if String.eqb (m_event m) ev_sig_reconstructed then
    match m_req m with MSigs (Some l) => HSigs l | _ => HErr end
  else if String.eqb (m_event m) ev_sig_recon_failed then
    match m_req m with MFsm (RSigError _ _ _ _) => HNone | _ => HErr end
  else if has_suffix (i_dstate inst) "_error" && dkg_failed (i_payload inst) then HNone
  else
    match (if has_suffix (i_dstate inst) "_error" && has_sgn (i_payload inst)
           then restart now inst else LoadOk inst) with
    | LoadPanic => HPanic
    | LoadErr => HErr
    | LoadOk i4 =>
      if has_suffix (i_dstate i4) "_timeout" &&
         (has_prefix (i_dstate i4) "state_sig_" || has_prefix (i_dstate i4) "state_dkg") then HNone
      else
        match (if has_suffix (i_dstate i4) "_timeout" && has_prefix (i_dstate i4) "state_signing_"
               then match p_sgn (i_payload i4) with Some _ => restart now i4 | None => LoadPanic end
               else LoadOk i4) with
        | LoadPanic => HPanic
        | LoadErr => HErr
        | LoadOk i5 => match m_req m with MFsm req => HFsm i5 req | _ => HErr end
        end
    end.

Definition pm_head (now : Z) (st : nstate) (m : message) : head :=
  match load st (m_round m) with
  | LoadPanic => HPanic
  | LoadErr => HErr
  | LoadOk inst =>
      if negb (String.eqb (m_event m) ev_sig_init) && negb (verify_ok st (i_payload inst) m) then HErr
      else pm_dispatch now m inst
  end.

(* stage 2: the FSM call and the manual hand-overs *)
Definition pm_fsm (now : Z) (inst : instance) (ev : string) (req : request) : fres :=
  match do_live inst ev req with
  | FOk i1 r1 x1 =>
      match (if String.eqb r1 st_collected then do_fresh (dump_of i1) ev_dkg_init (RDefault now) else FOk i1 r1 x1) with
      | FOk i2 r2 x2 =>
          if String.eqb r2 st_master_collected then do_fresh (dump_of i2) ev_sgn_init (RDefault now) else FOk i2 r2 x2
      | other => other
      end
  | other => other
  end.

Definition pm_op (round : tok) (r : string) (x : option response) : option operation :=
  if mem_str r op_states then
    match x with
    | Some _ => Some {| op_round := round; op_type := r; op_payload := x; op_reinit := None; op_extra := 0%N |}
    | None => None
    end
  else None.

(* what is written before pool and round, in this order when present *)
Inductive pre :=
| PSend (sigs : list rsig)                  (* the broadcast of a reconstruction *)
| PSrc (src : tok) (tasks : list mts)       (* the source of a proposed batch *)
| PSigs (l : list rsig).                    (* signatures (or the stubs of a proposal), l <> [] *)

Inductive plan :=
| Refuse (ps : list pre)
| Panic
| Accept (ps : list pre) (fin : option (instance * option operation)).   (* the round to save, the operation to put *)

Definition stub (m : message) (batch : tok) (t : mts) : rsig :=
  {| rs_file := mt_file t; rs_batch := batch; rs_msgid := mt_id t; rs_payload := mt_payload t; rs_sig := 0%N;
     rs_user := m_sender m; rs_round := m_round m |}.

Definition prop_plan (m : message) (req : request) (ps : list pre) (i : instance) (op : option operation) : plan :=
  if String.eqb (m_event m) ev_sgn_start then
    match m_tasks m, req with
    | Some [], RStart _ _ _ _ src => Refuse (ps ++ [PSrc src []])
    | Some tasks, RStart batch _ _ _ src => Accept (ps ++ [PSrc src tasks; PSigs (map (stub m batch) tasks)]) (Some (i, op))
    | _, _ => Refuse ps
    end
  else Accept ps (Some (i, op)).

Definition tail_plan (now : Z) (st : nstate) (m : message) (req : request) (inst : instance) : plan :=
  if negb (sender_is_participant (i_payload inst) (m_sender m) req) then Refuse [] else
  match pm_fsm now inst (m_event m) req with
  | FErr => Refuse []
  | FPanic => Panic
  | FOk i3 r3 x3 =>
      if String.eqb r3 st_partial_collected then
        match x3 with
        | Some (RespSigningProcess batch src parts) =>
            match reconstruct st (m_round m) (i_payload i3) batch src parts with
            | Some sigs =>
                match do_fresh (dump_of i3) ev_sgn_restart (RDefault now) with
                | FErr => Refuse [PSend sigs]
                | FPanic => Panic
                | FOk i4 _ _ => prop_plan m req [PSend sigs] i4 (pm_op (m_round m) r3 x3)
                end
            | None => Refuse []
            end
        | _ => Refuse []
        end
      else prop_plan m req [] i3 (pm_op (m_round m) r3 x3)
  end.

Definition pm_plan (now : Z) (st : nstate) (m : message) : plan :=
  match pm_head now st m with
  | HErr => Refuse []
  | HPanic => Panic
  | HNone => Accept [] None
  | HSigs [] => Refuse []
  | HSigs l => Accept [PSigs (map (stamp m) l)] None
  | HFsm inst req => tail_plan now st m req inst
  end.

Definition pre_write (r : tok) (st : nstate) (p : pre) : write :=
  match p with
  | PSend sigs => WSend {| o_round := r; o_event := ev_sig_reconstructed; o_sender := ns_user st;
                           o_recipient := 0%N; o_sigs := sigs; o_data := 0%N |}
  | PSrc src tasks => WSrc r src tasks
  | PSigs l => WSigs r (fold_left add_sig l (match tget' (ns_sigs st) r with Some s => s | None => [] end))
  end.
Definition do_pre (r : tok) (h : hs) (p : pre) : hs := emit h (pre_write r (h_st h) p).

Definition exec (put : bool) (r : tok) (h0 : hs) (pl : plan) : res (option operation) :=
  match pl with
  | Refuse ps => RErr (fold_left (do_pre r) ps h0)
  | Panic => RPanic
  | Accept ps None => ROk (fold_left (do_pre r) ps h0) None
  | Accept ps (Some (i, op)) => ROk (save_fsm (put_opt put (fold_left (do_pre r) ps h0) op) r (dump_of i)) op
  end.

Lemma pm_prop_plan put m req h0 ps i op :
  pm_prop put m req (fold_left (do_pre (m_round m)) ps h0) i op = exec put (m_round m) h0 (prop_plan m req ps i op).
Proof.
  unfold pm_prop, prop_plan. destruct (String.eqb (m_event m) ev_sgn_start); [|reflexivity].
  destruct (m_tasks m) as [[|t ts]|]; [| |reflexivity].
  - (* an empty expansion: its source is filed, then save_signatures refuses the empty list *)
    destruct req; try reflexivity. cbn [exec]. rewrite fold_left_app. reflexivity.
  - destruct req; try reflexivity. cbn [exec]. rewrite fold_left_app. reflexivity.
Qed.

Lemma pm_tail_plan put now m req h inst :
  pm_tail put now m req h inst = exec put (m_round m) h (tail_plan now (h_st h) m req inst).
Proof.
  unfold pm_tail, tail_plan, pm_fsm.
  destruct (negb (sender_is_participant _ _ _)); [reflexivity|].
  destruct (do_live inst (m_event m) req) as [i1 r1 x1| |]; try reflexivity.
  destruct (if String.eqb r1 st_collected then _ else _) as [i2 r2 x2| |]; try reflexivity.
  destruct (if String.eqb r2 st_master_collected then _ else _) as [i3 r3 x3| |]; try reflexivity.
  destruct (String.eqb r3 st_partial_collected); [|apply (pm_prop_plan put m req h [])].
  destruct x3 as [[]|]; try reflexivity.
  destruct (reconstruct _ _ _ _ _ _) as [sigs|]; [|reflexivity].
  destruct (do_fresh (dump_of i3) ev_sgn_restart _); try reflexivity.
  apply (pm_prop_plan put m req h [PSend sigs]).
Qed.

Theorem process_message_plan put now h0 m :
  process_message put now h0 m = exec put (m_round m) h0 (pm_plan now (h_st h0) m).
Proof.
  (* the case tree of process_message, branch for branch: pm_head and pm_dispatch are written to
     follow it *)
  unfold process_message, pm_plan, pm_head. rewrite get_instance_load.
  destruct (load (h_st h0) (m_round m)) as [inst| |]; cbn [as_res]; try reflexivity.
  destruct (negb (String.eqb (m_event m) ev_sig_init) && _); [reflexivity|]. unfold pm_dispatch.
  destruct (String.eqb (m_event m) ev_sig_reconstructed); [destruct (m_req m) as [| |[[|s l]|]]; reflexivity|].
  destruct (String.eqb (m_event m) ev_sig_recon_failed); [destruct (m_req m) as [[]| |]; reflexivity|].
  fold (dkg_failed (i_payload inst)). destruct (has_suffix (i_dstate inst) "_error" && dkg_failed _); [reflexivity|].
  fold (has_sgn (i_payload inst)). rewrite pm_restart_restart.
  (* both branches of the `if` as `as_res`, so that it can be pulled out *)
  change (ROk h0 inst) with (as_res h0 (LoadOk inst)). rewrite as_res_if.
  destruct (if _ && has_sgn _ then _ else _) as [i4| |]; [|reflexivity|reflexivity]. cbn [as_res].
  destruct (has_suffix (i_dstate i4) "_timeout" && (_ || _)); [reflexivity|].
  destruct (has_suffix (i_dstate i4) "_timeout" && has_prefix _ _).
  - destruct (p_sgn (i_payload i4)); [|reflexivity]. rewrite pm_restart_restart.
    destruct (restart now i4) as [i5| |]; [|reflexivity|reflexivity].
    destruct (m_req m); [apply pm_tail_plan|reflexivity|reflexivity].
  - destruct (m_req m); [apply pm_tail_plan|reflexivity|reflexivity].
Qed.

(* The path taken: what is known where a stage hands over.
   `restarted now i i'`: i' is i after none, one or two lazy restarts *)
Inductive restarted (now : Z) : instance -> instance -> Prop :=
| rs_here i : restarted now i i
| rs_next i i' i'' : restart now i = LoadOk i' -> restarted now i' i'' -> restarted now i i''.

Lemma restarted_snoc now a b c : restarted now a b -> restart now b = LoadOk c -> restarted now a c.
Proof.
  intros H Hc. induction H as [i|i i' i'' Hr _ IH]; [exact (rs_next _ _ _ _ Hc (rs_here _ _))|].
  exact (rs_next _ _ _ _ Hr (IH Hc)).
Qed.

(* what the answer of pm_dispatch tells: which of the two special events the message is, and that the
   instance handed to the FSM is the loaded one after the lazy restarts *)
Variant dispatch_spec (now : Z) (m : message) (inst0 : instance) : head -> Prop :=
| DsErr : dispatch_spec now m inst0 HErr
| DsPanic : dispatch_spec now m inst0 HPanic
| DsNone : String.eqb (m_event m) ev_sig_reconstructed = false -> dispatch_spec now m inst0 HNone
| DsSigs l : String.eqb (m_event m) ev_sig_reconstructed = true -> m_req m = MSigs (Some l) ->
    dispatch_spec now m inst0 (HSigs l)
| DsFsm inst req : String.eqb (m_event m) ev_sig_reconstructed = false ->
    String.eqb (m_event m) ev_sig_recon_failed = false ->
    restarted now inst0 inst -> m_req m = MFsm req -> dispatch_spec now m inst0 (HFsm inst req).

Lemma pm_dispatchP now m inst0 : dispatch_spec now m inst0 (pm_dispatch now m inst0).
Proof.
  unfold pm_dispatch.
  destruct (String.eqb (m_event m) ev_sig_reconstructed) eqn:E1.
  { destruct (m_req m) as [| |[l|]] eqn:Er; constructor; auto. }
  destruct (String.eqb (m_event m) ev_sig_recon_failed) eqn:E2.
  { destruct (m_req m) as [[]| |]; constructor; exact E1. }
  destruct (_ && dkg_failed _); [constructor; exact E1|].
  destruct (if _ && has_sgn _ then _ else _) as [i4| |] eqn:E4; try constructor.
  assert (R4 : restarted now inst0 i4).
  { destruct (_ && has_sgn _); [exact (rs_next _ _ _ _ E4 (rs_here _ _))|inversion E4; constructor]. }
  destruct (has_suffix (i_dstate i4) "_timeout" && (_ || _)); [constructor; exact E1|].
  destruct (if has_suffix (i_dstate i4) "_timeout" && _ then _ else _) as [i5| |] eqn:E5; try constructor.
  destruct (m_req m) as [req| |] eqn:Er; [|constructor|constructor].
  apply DsFsm; [exact E1|exact E2| |exact Er].
  destruct (has_suffix (i_dstate i4) "_timeout" && _); [|inversion E5; subst; exact R4].
  destruct (p_sgn (i_payload i4)); [exact (restarted_snoc _ _ _ _ R4 E5)|discriminate].
Qed.

(* in a round that is not cancelled the message goes straight to the FSM *)
Lemma pm_dispatch_plain now m inst :
  has_suffix (i_dstate inst) "_error" = false -> has_suffix (i_dstate inst) "_timeout" = false ->
  String.eqb (m_event m) ev_sig_reconstructed = false -> String.eqb (m_event m) ev_sig_recon_failed = false ->
  pm_dispatch now m inst = match m_req m with MFsm req => HFsm inst req | _ => HErr end.
Proof. intros He Ht E1 E2. unfold pm_dispatch. rewrite E1, E2, He. cbn [andb]. rewrite Ht. reflexivity. Qed.

(* what the answer of pm_head tells: the round loaded and, unless the message opens a round, its
   signature verified under the loaded payload *)
Variant head_spec (now : Z) (st : nstate) (m : message) : head -> Prop :=
| HsErr : head_spec now st m HErr
| HsPanic : head_spec now st m HPanic
| HsDispatch inst0 : load st (m_round m) = LoadOk inst0 ->
    (String.eqb (m_event m) ev_sig_init = false -> verify_ok st (i_payload inst0) m = true) ->
    head_spec now st m (pm_dispatch now m inst0).

Lemma pm_headP now st m : head_spec now st m (pm_head now st m).
Proof.
  unfold pm_head. destruct (load st (m_round m)) as [inst0| |] eqn:El; [|constructor|constructor].
  destruct (String.eqb (m_event m) ev_sig_init) eqn:E0.
  - constructor; [exact El|congruence].
  - destruct (verify_ok st (i_payload inst0) m) eqn:Ev; constructor; auto.
Qed.

(* from the FSM call onwards: a plan is accepted only as `prop_plan`, for a request in its sender's
   name that the FSM took, with nothing written before it but the broadcast of a collected batch *)
Variant tail_spec (now : Z) (st : nstate) (m : message) (req : request) (inst : instance) : plan -> Prop :=
| TsRefuse : tail_spec now st m req inst (Refuse [])
| TsPanic : tail_spec now st m req inst Panic
| TsStep i3 r3 x3 :
    sender_is_participant (i_payload inst) (m_sender m) req = true ->
    pm_fsm now inst (m_event m) req = FOk i3 r3 x3 -> String.eqb r3 st_partial_collected = false ->
    tail_spec now st m req inst (prop_plan m req [] i3 (pm_op (m_round m) r3 x3))
| TsSentRefuse sigs : tail_spec now st m req inst (Refuse [PSend sigs])
| TsCollected i3 r3 batch src parts sigs i4 r4 x4 :
    sender_is_participant (i_payload inst) (m_sender m) req = true ->
    pm_fsm now inst (m_event m) req = FOk i3 r3 (Some (RespSigningProcess batch src parts)) ->
    String.eqb r3 st_partial_collected = true ->
    reconstruct st (m_round m) (i_payload i3) batch src parts = Some sigs ->
    do_fresh (dump_of i3) ev_sgn_restart (RDefault now) = FOk i4 r4 x4 ->
    tail_spec now st m req inst
      (prop_plan m req [PSend sigs] i4 (pm_op (m_round m) r3 (Some (RespSigningProcess batch src parts)))).

Lemma tail_planP now st m req inst : tail_spec now st m req inst (tail_plan now st m req inst).
Proof.
  unfold tail_plan. destruct (sender_is_participant _ _ _) eqn:Es; [|constructor].
  destruct (pm_fsm now inst (m_event m) req) as [i3 r3 x3| |] eqn:Ef; [|constructor|constructor].
  destruct (String.eqb r3 st_partial_collected) eqn:Ec; [|exact (TsStep _ _ _ _ _ _ _ _ Es Ef Ec)].
  destruct x3 as [[]|]; try constructor.
  destruct (reconstruct _ _ _ _ _ _) as [sigs|] eqn:Er; [|constructor].
  destruct (do_fresh _ _ _) as [i4 r4 x4| |] eqn:E4; [|constructor|constructor].
  exact (TsCollected _ _ _ _ _ _ _ _ _ _ _ _ _ _ Es Ef Ec Er E4).
Qed.

(* every write satisfies P - but for the last one, if it saves the round *)
Definition all_but_save (P : write -> Prop) (tr : list write) : Prop :=
  Forall P tr \/ exists tr1 l, tr = tr1 ++ [WRounds l] /\ Forall P tr1.

Lemma do_pres_trace (P : write -> Prop) (Q : pre -> bool) r ps :
  (forall st p, Q p = true -> P (pre_write r st p)) -> forallb Q ps = true ->
  forall h0, Forall P (h_tr h0) -> Forall P (h_tr (fold_left (do_pre r) ps h0)).
Proof.
  intros HQ. induction ps as [|p ps IH]; intros Hps h0 H0; [exact H0|].
  apply andb_prop in Hps as [Hp Hps]. apply IH; [exact Hps|]. apply Forall_snoc; [exact H0|apply HQ, Hp].
Qed.

Lemma put_opt_cases put h op : put_opt put h op = h \/ exists l, put_opt put h op = emit h (WOps l).
Proof.
  unfold put_opt. destruct put; [|left; reflexivity]. destruct op as [o|]; [|left; reflexivity].
  unfold put_operation. destruct (existsb _ _); [left; reflexivity|]. right. eexists. reflexivity.
Qed.

(* which `pre` items a message can cause: only a batch proposal files a source and stubs, only a
   reconstruction message files signatures - and a refusal never comes after signatures were filed *)
Definition pre_ok (m : message) (refused : bool) (p : pre) : bool :=
  match p with
  | PSend _ => true
  | PSrc _ _ => String.eqb (m_event m) ev_sgn_start
  | PSigs _ => negb refused && (String.eqb (m_event m) ev_sgn_start || String.eqb (m_event m) ev_sig_reconstructed)
  end.
Definition plan_ok (m : message) (pl : plan) : Prop :=
  match pl with
  | Refuse ps => forallb (pre_ok m true) ps = true
  | Accept ps _ => forallb (pre_ok m false) ps = true
  | Panic => True
  end.

Lemma prop_plan_ok m req ps i op : (forall b, forallb (pre_ok m b) ps = true) -> plan_ok m (prop_plan m req ps i op).
Proof.
  intros Hps. unfold prop_plan. destruct (String.eqb (m_event m) ev_sgn_start) eqn:E; [|apply Hps].
  destruct (m_tasks m) as [[|t ts]|]; [| |apply Hps].
  - destruct req; try apply Hps. cbn [plan_ok]. rewrite forallb_app, Hps. cbn. rewrite E. reflexivity.
  - destruct req; try apply Hps. cbn [plan_ok]. rewrite forallb_app, Hps. cbn. rewrite E. reflexivity.
Qed.

Lemma tail_plan_ok now st m req inst : plan_ok m (tail_plan now st m req inst).
Proof.
  destruct (tail_planP now st m req inst).
  - reflexivity.
  - exact I.
  - apply prop_plan_ok. reflexivity.
  - reflexivity.
  - apply prop_plan_ok. reflexivity.
Qed.

Lemma pm_plan_ok now st m : plan_ok m (pm_plan now st m).
Proof.
  unfold pm_plan. destruct (pm_headP now st m) as [| |inst0 _ _]; [reflexivity|exact I|].
  destruct (pm_dispatchP now m inst0) as [| | |[|s l] E _|inst req _ _ _ _]; [reflexivity|exact I|reflexivity|reflexivity| |].
  - cbn. rewrite E, orb_true_r. reflexivity.
  - apply tail_plan_ok.
Qed.

(* the trace of the handler: P holds of all its writes - but for the round save, which comes last -
   as soon as it holds of the pool write and of what the message's event can cause *)
Theorem process_message_trace (P : write -> Prop) put now h0 m :
  Forall P (h_tr h0) ->
  match process_message put now h0 m with
  | ROk h _ => (forall l, P (WOps l)) -> (forall st p, pre_ok m false p = true -> P (pre_write (m_round m) st p)) ->
               all_but_save P (h_tr h)
  | RErr h => (forall st p, pre_ok m true p = true -> P (pre_write (m_round m) st p)) -> Forall P (h_tr h)
  | RPanic => True
  end.
Proof.
  intros H0. rewrite process_message_plan. pose proof (pm_plan_ok now (h_st h0) m) as Hok.
  destruct (pm_plan now (h_st h0) m) as [ps| |ps fin].
  - intros Hpre. apply (do_pres_trace P _ _ ps Hpre Hok h0 H0).
  - exact I.
  - destruct fin as [[i op]|]; intros Hops Hpre; pose proof (do_pres_trace P _ _ ps Hpre Hok h0 H0) as Hps.
    + (* then the pool write, if any, and the round save *)
      right. eexists. eexists. split; [reflexivity|].
      destruct (put_opt_cases put (fold_left (do_pre (m_round m)) ps h0) op) as [->|[l ->]].
      * exact Hps.
      * apply Forall_snoc; [exact Hps|apply Hops].
    + left. exact Hps.
Qed.
