(* C03 at node level: the step of processMessage that records a batch proposal (pm_prop) files
   one stub per expanded message - id, file and payload of the expansion, the proposer's name, no
   signature - and, the ids of the batch being distinct and the batch new in the round's store,
   every stub is the first entry of its slot: it is what export_signatures shows for the message
   until the proposer's own reconstruction replaces it (Node/ExportProofs.v). *)
From Coq Require Import String List ZArith.
Require Import Fsm.Types Fsm.Actions Fsm.Provider Node.Types Node.Process Node.Assoc Node.Walk
  Node.Reconstructed Node.Export Node.ExportProofs.
Import ListNotations.
Local Open Scope string_scope.
Local Open Scope list_scope.

Definition stub_of (m : message) (batch : tok) (t : mts) : rsig :=
  {| rs_file := mt_file t; rs_batch := batch; rs_msgid := mt_id t; rs_payload := mt_payload t; rs_sig := 0%N;
     rs_user := m_sender m; rs_round := m_round m |}.

Lemma sigs_put_opt put h op : ns_sigs (h_st (put_opt put h op)) = ns_sigs (h_st h).
Proof. destruct (put_opt_cases put h op) as [->|[l ->]]; reflexivity. Qed.

Theorem proposal_files_the_stubs_first put m h i op batch a b c src tasks h' o :
  String.eqb (m_event m) ev_sgn_start = true -> m_tasks m = Some tasks ->
  NoDup (map mt_id tasks) ->
  (forall t, In t tasks -> first_entry (round_store (h_st h) (m_round m)) batch (mt_id t) = None) ->
  pm_prop put m (RStart batch a b c src) h i op = ROk h' o ->
  forall t, In t tasks ->
    first_entry (round_store (h_st h') (m_round m)) batch (mt_id t) = Some (stub_of m batch t).
Proof.
  intros Hev Ht Hnd Hfresh H t Hin.
  (* `h` read as `fold_left (do_pre _) [] h` *)
  rewrite (pm_prop_plan put m _ h [] i op : pm_prop put m _ h i op = _) in H.
  unfold prop_plan in H. rewrite Hev, Ht in H. destruct tasks as [|t0 rest]; [destruct Hin|].
  cbn [exec app fold_left] in H. inversion H; subst h' o. clear H.
  unfold round_store, save_fsm. cbn [emit h_st apply_write ns_sigs]. rewrite sigs_put_opt.
  unfold do_pre. cbn [pre_write emit h_st apply_write ns_sigs]. rewrite aput_same.
  apply (fresh_entries_come_first (map (stub_of m batch) (t0 :: rest)) _ batch) with (s := stub_of m batch t).
  - intros s Hs. apply in_map_iff in Hs as (x & <- & _). reflexivity.
  - rewrite map_map. exact Hnd.
  - intros s Hs. apply in_map_iff in Hs as (x & <- & Hx). apply Hfresh. exact Hx.
  - apply in_map. exact Hin.
Qed.

(* non-vacuity: a proposal of two messages recorded on an empty node *)
Definition en_msg : message :=
  {| m_round := 9%N; m_event := ev_sgn_start; m_data := 20%N; m_req := MFsm (RStart 7%N 0 0 [] 21%N); m_sig := SigBy 3%N 20%N;
     m_sender := 2%N; m_recipient := 0%N;
     m_tasks := Some [{| mt_id := 31%N; mt_file := 41%N; mt_payload := 51%N |}; {| mt_id := 32%N; mt_file := 42%N; mt_payload := 52%N |}] |}.
Definition en_inst : instance := {| i_mach := ""; i_cur := ""; i_dstate := ""; i_payload := empty_payload |}.
Example proposal_stubs_example :
  match pm_prop true en_msg (RStart 7%N 0 0 [] 21%N) {| h_st := empty_node 2%N 3%N; h_tr := [] |} en_inst None with
  | ROk h' _ =>
      match tget' (round_store (h_st h') 9%N) 7%N with
      | Some b => export_batch b = Some [(31%N, {| ex_payload := 51%N; ex_sig := 0%N; ex_file := 41%N |});
                                         (32%N, {| ex_payload := 52%N; ex_sig := 0%N; ex_file := 42%N |})]
      | None => False
      end
  | _ => False
  end.
Proof. vm_compute. reflexivity. Qed.
