(* C14: a state reset served while the poller runs (Node/ResetPoll.v).  A tick over the n - k messages
   still to come is 1 + 2 (n - k) steps, so the instants p < 2 (n - k) + 4 cover the tick and the three
   instants after it; the 4 n + 8 steps run afterwards are more than the rest of that tick and one whole
   tick over the board (at most 4 n + 2). *)
From Coq Require Import List Bool Lia.
Require Import Node.ResetPoll.
Import ListNotations.

Definition idle_at (n k p : nat) : bool :=
  match w_pc (run n (repeat false p) (start k)) with PIdle => true | _ => false end.

Definition instants : list (nat * nat * nat) :=
  flat_map (fun n => flat_map (fun k => map (fun p => (n, k, p)) (seq 0 (2 * (n - k) + 4))) (seq 1 n)) (seq 0 7).

Lemma reset_instants_decided :
  forallb (fun x => let '(n, k, p) := x in
     Bool.eqb (replayed_all n (reset_after n k p (4 * n + 8))) (idle_at n k p)) instants = true /\
  length instants = 154.
Proof. vm_compute. split; reflexivity. Qed.

(* every board of up to 6 messages of which the node has handled the first k >= 1, every instant
   of the reset: the outcome is the sequential one (the fresh state is given the whole board, in order,
   and ends at offset n) exactly when the request is served while the poller is between two ticks *)
Theorem reset_serialisable_iff_idle n k p :
  n <= 6 -> 1 <= k <= n -> p < 2 * (n - k) + 4 ->
  replayed_all n (reset_after n k p (4 * n + 8)) = idle_at n k p.
Proof.
  intros Hn Hk Hp. destruct reset_instants_decided as [H _]. rewrite forallb_forall in H.
  assert (Hin : In (n, k, p) instants).
  { apply in_flat_map. exists n. split; [apply in_seq; lia|].
    apply in_flat_map. exists k. split; [apply in_seq; lia|]. apply in_map. apply in_seq. lia. }
  specialize (H _ Hin). apply Bool.eqb_prop in H. exact H.
Qed.

Lemma set_cur_pc w d pc : w_pc (set_cur w d pc) = pc.
Proof. unfold set_cur. destruct (w_swapped w); reflexivity. Qed.

(* an undisturbed tick, from the fetch on: two steps for each fetched message, then idle again *)
Lemma tick_ends_idle n rest : forall w,
  w_pc w = next_of rest -> w_pc (run n (repeat false (length rest * 2)) w) = PIdle.
Proof.
  induction rest as [|m r IH]; intros w Hpc; [exact Hpc|].
  change (w_pc (run n (repeat false (length r * 2)) (poll_step n (poll_step n w))) = PIdle). apply IH.
  assert (H1 : w_pc (poll_step n w) = PSave m r) by (unfold poll_step; rewrite Hpc; apply set_cur_pc).
  unfold poll_step at 1. rewrite H1. apply set_cur_pc.
Qed.

Lemma idle_after_the_tick n k : idle_at n k (2 * (n - k) + 1) = true.
Proof.
  unfold idle_at. replace (2 * (n - k) + 1) with (S (length (from n k) * 2)) by (unfold from; rewrite seq_length; lia).
  change (run n (repeat false (S (length (from n k) * 2))) (start k))
    with (run n (repeat false (length (from n k) * 2)) (poll_step n (start k))).
  rewrite (tick_ends_idle n (from n k)); reflexivity.
Qed.

Lemma cur_set_cur w d pc : cur (set_cur w d pc) = d.
Proof. unfold cur, set_cur. destruct (w_swapped w); reflexivity. Qed.

Lemma poll_swapped n w : w_swapped (poll_step n w) = w_swapped w.
Proof. unfold poll_step, set_cur. destruct (w_pc w); destruct (w_swapped w); reflexivity. Qed.

(* every position the poller is still to deliver to the current state is at least 1: those left of
   the tick under way and, between two ticks, those from the offset it will load *)
Definition ahead_ge1 (off : nat) (pc : ppc) : Prop :=
  match pc with
  | PIdle => 1 <= off
  | PProcess m rest => 1 <= m /\ Forall (fun x => 1 <= x) rest
  | PSave m rest => Forall (fun x => 1 <= x) rest
  end.
Definition ahead (w : world) : Prop := ahead_ge1 (d_off (cur w)) (w_pc w).

Lemma from_ge1 n k : 1 <= k -> Forall (fun x => 1 <= x) (from n k).
Proof. intros Hk. apply Forall_forall. intros x Hx. apply in_seq in Hx. lia. Qed.

Lemma next_of_ahead off rest : Forall (fun x => 1 <= x) rest -> 1 <= off -> ahead_ge1 off (next_of rest).
Proof. intros H Hoff. destruct rest as [|m r]; [exact Hoff|]. inversion H; subst. split; assumption. Qed.

Lemma poll_ahead n w : ahead w -> ahead (poll_step n w).
Proof.
  unfold ahead, poll_step. intros Hp.
  destruct (w_pc w) as [|m rest|m rest]; rewrite cur_set_cur, set_cur_pc; cbn [d_off ahead_ge1] in *.
  - apply next_of_ahead; [apply from_ge1|]; exact Hp.
  - apply Hp.
  - apply next_of_ahead; [exact Hp|lia].
Qed.

Lemma poll_no_zero n w : ahead w -> ~ In 0 (d_del (cur w)) -> ~ In 0 (d_del (cur (poll_step n w))).
Proof.
  unfold ahead, poll_step. intros Hp Hd.
  destruct (w_pc w) as [|m rest|m rest]; rewrite cur_set_cur; cbn [d_del ahead_ge1] in *; [exact Hd| |exact Hd].
  intros Hin. apply in_app_or in Hin as [Hin|[Hin|[]]]; [contradiction|lia].
Qed.

(* before the swap, with k >= 1 messages handled *)
Lemma polls_ahead n p : forall w,
  ahead w -> ahead (run n (repeat false p) w) /\ w_swapped (run n (repeat false p) w) = w_swapped w.
Proof.
  induction p as [|p IH]; intros w H; [split; [exact H|reflexivity]|].
  change (run n (repeat false (S p)) w) with (run n (repeat false p) (poll_step n w)).
  rewrite <- (poll_swapped n w). apply IH, poll_ahead, H.
Qed.

(* after it *)
Definition lost (w : world) : Prop := w_swapped w = true /\ ~ In 0 (d_del (cur w)) /\ ahead w.

Lemma lost_step n w b : lost w -> lost (step n w b).
Proof.
  intros (Hs & Hd & Hp). destruct b; cbn [step].
  - unfold reset_step. rewrite Hs. repeat split; assumption.
  - split; [rewrite poll_swapped; exact Hs|]. split; [apply poll_no_zero|apply poll_ahead]; assumption.
Qed.

Lemma lost_run n sched w : lost w -> lost (run n sched w).
Proof. revert w. induction sched as [|b r IH]; intros w H; [exact H|]. apply IH. apply lost_step. exact H. Qed.

(* the swap inside a tick: the fresh state starts at offset 0, and what is left of the tick is >= 1 *)
Lemma swap_inside_a_tick_lost w : w_swapped w = false -> ahead w -> w_pc w <> PIdle -> lost (reset_step w).
Proof.
  intros Hs Hp Hpc. unfold reset_step. rewrite Hs. split; [reflexivity|]. split; [intros []|].
  unfold ahead in *.
  destruct (w_pc w); [destruct (Hpc eq_refl)|exact Hp|exact Hp].
Qed.

(* ANY board, any number k >= 1 of messages already handled: a request served at an instant at
   which the poller is not between two ticks; however long the poller goes on afterwards, position 0
   is never given to the fresh state *)
Theorem reset_while_not_idle_loses_the_board n k p sched :
  1 <= k -> idle_at n k p = false ->
  let w := run n (repeat false p ++ true :: sched) (start k) in
  ~ In 0 (d_del (w_new w)) /\ w_swapped w = true.
Proof.
  intros Hk Hidle.
  replace (run n (repeat false p ++ true :: sched) (start k))
    with (run n sched (reset_step (run n (repeat false p) (start k)))) by (unfold run; rewrite fold_left_app; reflexivity).
  destruct (polls_ahead n p (start k) Hk) as [Ha Hs].
  destruct (lost_run n sched (reset_step (run n (repeat false p) (start k)))) as (Hs' & Hd & _).
  - apply swap_inside_a_tick_lost; [exact Hs|exact Ha|].
    intros E. unfold idle_at in Hidle. rewrite E in Hidle. discriminate.
  - unfold cur in Hd. rewrite Hs' in Hd. split; assumption.
Qed.

