(* C20 (hash part): what the confirmation hash's pre-image determines, and what it does not. *)
From Coq Require Import List ZArith.
Require Import Lib.GoStrFacts Node.ReinitHash.
Import ListNotations.

Lemma app_same_length {A} (x y a b : list A) : length x = length y -> x ++ a = y ++ b -> x = y /\ a = b.
Proof.
  revert y. induction x as [|h x IH]; intros [|k y] Hl He; try discriminate; [auto|].
  inversion He; subst. destruct (IH y) as [-> ->]; auto.
Qed.

(* concatenation is injective on lists of fields of equal lengths *)
Lemma concat_inj_lengths (a b : list (list N)) :
  map (@length N) a = map (@length N) b -> concat a = concat b -> a = b.
Proof.
  revert b. induction a as [|x a IH]; intros [|y b] Hl Hc; try discriminate; [reflexivity|].
  inversion Hl as [[Hxy Hrest]].
  destruct (app_same_length x y _ _ Hxy Hc) as [-> Hc']. f_equal. apply IH; assumption.
Qed.

(* the same file gives the same hash on every node: the hash is a function of the decoded file *)
Theorem same_file_same_hash f g : f = g -> reinit_hash f = reinit_hash g.
Proof. intros ->. reflexivity. Qed.

(* the witnesses against full sensitivity: fields are concatenated without separators or lengths *)
Definition amb1 : rh_file := {| hf_id := [97; 98]%N; hf_threshold := 12; hf_parts := []; hf_msgs := [] |}.
Definition amb2 : rh_file := {| hf_id := [97; 98; 49]%N; hf_threshold := 2; hf_parts := []; hf_msgs := [] |}.

(* single-field edits (the property's quantifier): every one changes the pre-image *)
(* two field lists that differ in one field have different concatenations: the rules by which
   the one differing field is reached *)
Lemma differ_here {A} (x y : list A) s : x <> y -> concat (x :: s) <> concat (y :: s).
Proof. intros H E. apply app_inv_tail in E. exact (H E). Qed.
Lemma differ_after {A} (pre a b : list (list A)) : concat a <> concat b -> concat (pre ++ a) <> concat (pre ++ b).
Proof. rewrite !concat_app. intros H E. apply app_inv_head in E. exact (H E). Qed.
Lemma differ_before {A} (suf a b : list (list A)) : concat a <> concat b -> concat (a ++ suf) <> concat (b ++ suf).
Proof. rewrite !concat_app. intros H E. apply app_inv_tail in E. exact (H E). Qed.
Definition differ_next {A} (h : list A) := differ_after [h].

Inductive part_edit : rh_part -> rh_part -> Prop :=
| PE_new p v : v <> hp_new p -> part_edit p {| hp_new := v; hp_old := hp_old p; hp_dkg := hp_dkg p; hp_name := hp_name p |}
| PE_old p v : v <> hp_old p -> part_edit p {| hp_new := hp_new p; hp_old := v; hp_dkg := hp_dkg p; hp_name := hp_name p |}
| PE_dkg p v : v <> hp_dkg p -> part_edit p {| hp_new := hp_new p; hp_old := hp_old p; hp_dkg := v; hp_name := hp_name p |}
| PE_name p v : v <> hp_name p -> part_edit p {| hp_new := hp_new p; hp_old := hp_old p; hp_dkg := hp_dkg p; hp_name := v |}.

Inductive msg_edit : rh_msg -> rh_msg -> Prop :=
| ME_data m v : v <> hm_data m -> msg_edit m {| hm_data := v; hm_sig := hm_sig m; hm_rcpt := hm_rcpt m; hm_event := hm_event m; hm_sender := hm_sender m; hm_round := hm_round m; hm_offset := hm_offset m |}
| ME_sig m v : v <> hm_sig m -> msg_edit m {| hm_data := hm_data m; hm_sig := v; hm_rcpt := hm_rcpt m; hm_event := hm_event m; hm_sender := hm_sender m; hm_round := hm_round m; hm_offset := hm_offset m |}
| ME_rcpt m v : v <> hm_rcpt m -> msg_edit m {| hm_data := hm_data m; hm_sig := hm_sig m; hm_rcpt := v; hm_event := hm_event m; hm_sender := hm_sender m; hm_round := hm_round m; hm_offset := hm_offset m |}
| ME_event m v : v <> hm_event m -> msg_edit m {| hm_data := hm_data m; hm_sig := hm_sig m; hm_rcpt := hm_rcpt m; hm_event := v; hm_sender := hm_sender m; hm_round := hm_round m; hm_offset := hm_offset m |}
| ME_sender m v : v <> hm_sender m -> msg_edit m {| hm_data := hm_data m; hm_sig := hm_sig m; hm_rcpt := hm_rcpt m; hm_event := hm_event m; hm_sender := v; hm_round := hm_round m; hm_offset := hm_offset m |}
| ME_round m v : v <> hm_round m -> msg_edit m {| hm_data := hm_data m; hm_sig := hm_sig m; hm_rcpt := hm_rcpt m; hm_event := hm_event m; hm_sender := hm_sender m; hm_round := v; hm_offset := hm_offset m |}
| ME_offset m o : o <> hm_offset m -> msg_edit m {| hm_data := hm_data m; hm_sig := hm_sig m; hm_rcpt := hm_rcpt m; hm_event := hm_event m; hm_sender := hm_sender m; hm_round := hm_round m; hm_offset := o |}.

Inductive file_edit : rh_file -> rh_file -> Prop :=
| FE_id f v : v <> hf_id f ->
    file_edit f {| hf_id := v; hf_threshold := hf_threshold f; hf_parts := hf_parts f; hf_msgs := hf_msgs f |}
| FE_threshold f t : t <> hf_threshold f ->
    file_edit f {| hf_id := hf_id f; hf_threshold := t; hf_parts := hf_parts f; hf_msgs := hf_msgs f |}
| FE_part f l p p' r : hf_parts f = l ++ p :: r -> part_edit p p' ->
    file_edit f {| hf_id := hf_id f; hf_threshold := hf_threshold f; hf_parts := l ++ p' :: r; hf_msgs := hf_msgs f |}
| FE_msg f l m m' r : hf_msgs f = l ++ m :: r -> msg_edit m m' ->
    file_edit f {| hf_id := hf_id f; hf_threshold := hf_threshold f; hf_parts := hf_parts f; hf_msgs := l ++ m' :: r |}.

Lemma part_edit_fields p p' : part_edit p p' -> concat (part_fields p) <> concat (part_fields p').
Proof.
  intros [q v H|q v H|q v H|q v H]; unfold part_fields; cbn [hp_new hp_old hp_dkg hp_name].
  - apply differ_here. congruence.
  - apply differ_next, differ_here. congruence.
  - do 2 apply differ_next. apply differ_here. congruence.
  - do 3 apply differ_next. apply differ_here. congruence.
Qed.

Lemma msg_edit_fields m m' : msg_edit m m' -> concat (msg_fields m) <> concat (msg_fields m').
Proof.
  intros [q v H|q v H|q v H|q v H|q v H|q v H|q o H]; unfold msg_fields;
    cbn [hm_data hm_sig hm_rcpt hm_event hm_sender hm_round hm_offset].
  - apply differ_here. congruence.
  - apply differ_next, differ_here. congruence.
  - do 2 apply differ_next. apply differ_here. congruence.
  - do 3 apply differ_next. apply differ_here. congruence.
  - do 4 apply differ_next. apply differ_here. congruence.
  - do 5 apply differ_next. apply differ_here. congruence.
  - do 6 apply differ_next. apply differ_here. intros E. apply dec_of_Z_inj in E. congruence.
Qed.

(* every single-field edit (id, threshold, a participant's name or any of its keys, a contained
   message's payload, signature, recipient, event, sender, round or offset) changes the pre-image *)
Theorem single_field_edit_changes_hash_input f g : file_edit f g -> hash_input f <> hash_input g.
Proof.
  unfold hash_input, fields.
  intros [h v H|h t H|h l p p' r Hp He|h l m m' r Hm He]; cbn [hf_id hf_threshold hf_parts hf_msgs].
  - apply differ_here. congruence.
  - apply differ_next, differ_here. intros E. apply dec_of_Z_inj in E. congruence.
  - rewrite Hp, !flat_map_app.
    apply (differ_after [_; _]), differ_before, differ_after, differ_before, part_edit_fields, He.
  - rewrite Hm, !flat_map_app.
    apply (differ_after [_; _]), differ_after, differ_after, differ_before, msg_edit_fields, He.
Qed.

(* non-vacuity: an offset edit of a file with one participant and one message *)
Definition ex_msg : rh_msg := {| hm_data := [1%N]; hm_sig := [2%N]; hm_rcpt := []; hm_event := [101%N]; hm_sender := [117%N]; hm_round := [114%N]; hm_offset := 9 |}.
Definition ex_file : rh_file := {| hf_id := [114%N]; hf_threshold := 2; hf_parts := [{| hp_new := [1%N]; hp_old := [2%N]; hp_dkg := [3%N]; hp_name := [117%N] |}]; hf_msgs := [ex_msg] |}.
Example offset_edit_is_an_edit :
  file_edit ex_file {| hf_id := hf_id ex_file; hf_threshold := hf_threshold ex_file; hf_parts := hf_parts ex_file;
                      hf_msgs := [] ++ {| hm_data := hm_data ex_msg; hm_sig := hm_sig ex_msg; hm_rcpt := hm_rcpt ex_msg; hm_event := hm_event ex_msg; hm_sender := hm_sender ex_msg; hm_round := hm_round ex_msg; hm_offset := 10 |} :: [] |}.
Proof. apply (FE_msg ex_file [] ex_msg _ []); [reflexivity|]. apply ME_offset. discriminate. Qed.
