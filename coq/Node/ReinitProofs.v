(* C20 (state part): a reinit file's embedded messages of OTHER rounds (junk, traffic of another
   key on the same topic) have no influence on the reinitialisation: the replay behaves exactly as
   on the file without them. *)
From Coq Require Import List ZArith Bool.
Require Import Fsm.Types Node.Types Node.Process Node.Walk.
Import ListNotations.

(* the embedded messages the replay passes over: other rounds, the signing phase, other addressees *)
Definition skipped (me id : tok) (m : message) : bool :=
  negb (N.eqb (m_round m) id) || is_signing_event (m_event m) ||
  negb (N.eqb (m_recipient m) 0 || N.eqb (m_recipient m) me).

Lemma reinit_msgs_skips now me id m :
  skipped me id m = true ->
  forall l r h ops, reinit_msgs now me id h (l ++ m :: r) ops = reinit_msgs now me id h (l ++ r) ops.
Proof.
  intros Hs l. induction l as [|x l IH]; intros r h ops; cbn [app reinit_msgs].
  - revert Hs. unfold skipped. destruct (negb (N.eqb (m_round m) id)); [reflexivity|].
    destruct (is_signing_event (m_event m)); [reflexivity|].
    destruct (N.eqb (m_recipient m) 0 || N.eqb (m_recipient m) me); [discriminate|reflexivity].
  - destruct (negb (N.eqb (m_round x) id)); [apply IH|].
    destruct (is_signing_event (m_event x)); [apply IH|].
    destruct (N.eqb (m_recipient x) 0 || N.eqb (m_recipient x) me); [|apply IH].
    destruct (process_message false now h x) as [h' [o|]|h'|]; try apply IH. reflexivity.
Qed.

Definition with_msgs (rd : redkg) (ms : list message) : redkg :=
  {| rd_id := rd_id rd; rd_hash := rd_hash rd; rd_parts := rd_parts rd; rd_msgs := ms |}.

Lemma reinit_ignores_skipped now h rd l m r :
  (forall me, skipped me (rd_id rd) m = true) ->
  reinit_dkg now h (Some (with_msgs rd (l ++ m :: r))) = reinit_dkg now h (Some (with_msgs rd (l ++ r))).
Proof.
  intros Hs. unfold reinit_dkg, with_msgs. cbn [rd_id rd_msgs rd_hash rd_parts].
  rewrite (reinit_msgs_skips _ _ _ m (Hs _)). reflexivity.
Qed.

Definition with_sig (m : message) (s : sigv) : message :=
  {| m_round := m_round m; m_event := m_event m; m_data := m_data m; m_req := m_req m; m_sig := s;
     m_sender := m_sender m; m_recipient := m_recipient m; m_tasks := m_tasks m |}.
(* while verification is switched off (as during a reinitialisation) the signature of a message is
   never looked at: a message the original nodes refused for its signature is replayed like a genuine one *)
Theorem unverified_replay put now h m s :
  ns_skip (h_st h) = true ->
  process_message put now h (with_sig m s) = process_message put now h m.
Proof.
  intros Hs. rewrite !process_message_plan. change (m_round (with_sig m s)) with (m_round m). f_equal.
  unfold pm_plan, pm_head. change (m_round (with_sig m s)) with (m_round m).
  destruct (load (h_st h) (m_round m)) as [inst| |]; try reflexivity. unfold verify_ok. rewrite Hs. reflexivity.
Qed.
