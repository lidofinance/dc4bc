(* C13: a node killed INSIDE the handler of a board message.  ProcessMessage puts the operation into
   the pool BEFORE it saves the round, and the round save is the handler's last durable write; hence
   a node killed at any point inside the handler comes back with every stored round as it was, the
   redelivered message is handled exactly as it would have been handled without the crash, and an
   accepted message's operation is in the pool when the handler returns. *)
From Coq Require Import String List ZArith Bool Lia.
Require Import Fsm.Actions Node.Types Node.Process Node.Assoc Node.Walk Node.Local Node.Crash.
Import ListNotations.
Local Open Scope string_scope.
Local Open Scope list_scope.

(* a proof principle, for whoever wants a further fact about every way processMessage can end: what
   holds at the leaves holds of the result.  Parts 2 and 3 below go through `process_message_trace` *)
Section Walk.
  Variables (put : bool) (now : Z) (m : message).
  Variable Inv : hs -> Prop.
  Variable Q : res (option operation) -> Prop.
  Hypothesis q_err : forall h, Inv h -> Q (RErr h).
  Hypothesis q_none : forall h, Inv h -> Q (ROk h None).
  Hypothesis q_panic : Q RPanic.
  Hypothesis inv_send : forall h x, Inv h -> Inv (emit h (WSend x)).
  Hypothesis q_sigs : forall h l, String.eqb (m_event m) ev_sig_reconstructed = true -> Inv h ->
    match save_signatures h l with ROk h' _ => Q (ROk h' None) | RErr h' => Q (RErr h') | RPanic => True end.
  Hypothesis q_prop : forall req h i op, Inv h -> Q (pm_prop put m req h i op).

  Lemma walk_process_message h0 : Inv h0 -> Q (process_message put now h0 m).
  Proof using put now m Inv Q q_err q_none q_panic inv_send q_sigs q_prop.
    intros Hi. rewrite process_message_plan. unfold pm_plan.
    destruct (pm_headP now (h_st h0) m) as [| |inst0 _ _]; [apply q_err, Hi|exact q_panic|].
    destruct (pm_dispatchP now m inst0) as [| | |l E _|inst req _ _ _ _];
      [apply q_err, Hi|exact q_panic|apply q_none, Hi| |].
    - (* pm_plan treats the empty list apart *)
      pose proof (q_sigs h0 (map (stamp m) l) E Hi) as Hs. destruct l; exact Hs.
    - destruct (tail_planP now (h_st h0) m req inst) as [| |i3 r3 x3 _ _ _|sigs|i3 r3 batch src parts sigs i4 r4 x4 _ _ _ _ _].
      + apply q_err, Hi.
      + exact q_panic.
      + rewrite <- (pm_prop_plan put m req h0 []). apply q_prop, Hi.
      + apply q_err, inv_send, Hi.
      + rewrite <- (pm_prop_plan put m req h0 [PSend sigs]). apply q_prop, inv_send, Hi.
  Qed.
End Walk.

(* 1. the operation of an accepted message is in the pool when the handler returns *)
Definition pooled (h : hs) (o : operation) : Prop :=
  existsb (op_same_id o) (ns_deleted (h_st h)) = false ->        (* not already handled and retired *)
  existsb (op_same_id o) (ops_visible (h_st h)) = true.

Lemma put_operation_pools h o :
  match put_operation h o with ROk h' _ => pooled h' o | _ => False end.
Proof.
  unfold put_operation. destruct (existsb (op_same_id o) (ops_visible (h_st h))) eqn:E.
  - intros _. exact E.
  - intros Hd.
    apply existsb_exists. exists o. split; [|apply op_same_id_refl].
    apply filter_In. split; [apply in_or_app; right; left; reflexivity|].
    rewrite Hd. reflexivity.
Qed.

Lemma save_fsm_pooled h r d o : pooled h o -> pooled (save_fsm h r d) o.
Proof. auto. Qed.

Theorem accepted_operation_is_pooled now h0 m h o :
  process_message true now h0 m = ROk h (Some o) -> pooled h o.
Proof.
  intros H. rewrite process_message_plan in H.
  destruct (pm_plan _ _ _) as [ps| |ps [[i op]|]]; inversion H; subst h op.
  apply save_fsm_pooled.
  pose proof (put_operation_pools (fold_left (do_pre (m_round m)) ps h0) o) as Hp. destruct (put_operation _ o); tauto.
Qed.

(* 2. the round save is the LAST durable write of the handler *)
Fixpoint count_durable (tr : list write) : nat :=
  match tr with [] => 0 | w :: r => (if is_durable w then 1 else 0) + count_durable r end.

Lemma take_durable_before_last k tr1 w :
  is_durable w = true -> k < count_durable (tr1 ++ [w]) ->
  exists rest, tr1 = take_durable k (tr1 ++ [w]) ++ rest.
Proof.
  intros Hw. revert k. induction tr1 as [|a t IH]; intros k Hk; cbn [app take_durable count_durable] in *.
  - rewrite Hw in *. destruct k; [exists []; reflexivity|]. lia.
  - destruct (is_durable a).
    + destruct k as [|k']; [exists (a :: t); reflexivity|].
      destruct (IH k') as [rest E]; [lia|]. exists rest. cbn. rewrite <- E. reflexivity.
    + destruct (IH k) as [rest E]; [cbn in Hk; exact Hk|]. exists rest. cbn. rewrite <- E. reflexivity.
Qed.

Lemma Forall_take_durable (P : write -> Prop) k tr : Forall P tr -> Forall P (take_durable k tr).
Proof.
  intros H. destruct (take_durable_prefix k tr) as [rest E]. rewrite E in H. apply Forall_app in H. exact (proj1 H).
Qed.

(* a handler killed strictly before its last durable write has not saved the round *)
Lemma all_but_save_strict_prefix P k tr :
  all_but_save P tr -> k < count_durable tr -> Forall P (take_durable k tr).
Proof.
  intros [H|(tr1 & l & -> & H1)] Hk; [apply Forall_take_durable; exact H|].
  destruct (take_durable_before_last k tr1 (WRounds l) eq_refl Hk) as [rest E].
  rewrite E in H1. apply Forall_app in H1. exact (proj1 H1).
Qed.

(* the writes done when the handler of a board message is killed after k durable writes, strictly
   inside it: P holds of them if it holds of the pool write and of what the event can cause *)
Lemma killed_inside_trace (P : write -> bool) now st m k :
  (forall l, P (WOps l) = true) ->
  (forall b st p, pre_ok m b p = true -> P (pre_write (m_round m) st p) = true) ->
  let r := process_board_message now {| h_st := st; h_tr := [] |} m in
  (k < count_durable (trace_of r) \/ (exists h, r = RErr h)) ->
  forallb P (take_durable k (trace_of r)) = true.
Proof.
  intros Hops Hpre r Hk. apply forallb_forall, Forall_forall.
  pose proof (process_message_trace (fun w => P w = true) true now {| h_st := st; h_tr := [] |} m (Forall_nil _)) as Hl.
  unfold process_board_message in *.
  destruct (process_message true now {| h_st := st; h_tr := [] |} m) as [h o|h|].
  - destruct Hk as [Hk|[h' Hk]]; [|discriminate]. apply all_but_save_strict_prefix; [exact (Hl Hops (Hpre false))|exact Hk].
  - apply Forall_take_durable, Hl, Hpre.
  - constructor.
Qed.

(* 3. the redelivered message is handled as if the node had never been killed *)
Definition keeps_round_parts (w : write) : bool :=
  match w with WOps _ | WDeleted _ | WSend _ => true | _ => false end.

Lemma fold_keeps_round_parts r tr : forallb keeps_round_parts tr = true ->
  forall st x, lagree r st x -> lagree r (fold_left apply_write tr st) x.
Proof.
  induction tr as [|w tr IH]; intros H st x Hx; [exact Hx|].
  apply andb_prop in H as [Hw H]. apply IH; [exact H|].
  apply apply_write_spares; [destruct w; discriminate Hw || exact I|exact Hx].
Qed.

(* a message that is neither a signing proposal nor a reconstructed signature (those also write the
   signature store): before the round save the handler touches the pool and the board only *)
Theorem killed_inside_then_redelivered put now now' st m k hc u :
  ns_skip st = false ->
  m_event m <> ev_sgn_start -> m_event m <> ev_sig_reconstructed ->
  let r := process_board_message now {| h_st := st; h_tr := [] |} m in
  k < count_durable (trace_of r) ->
  crash_after st k r = ROk hc u ->
  rrel (m_round m) (process_message put now' {| h_st := h_st hc; h_tr := [] |} m)
                   (process_message put now' {| h_st := st; h_tr := [] |} m).
Proof.
  intros Hskip Hev1 Hev2 r Hk H. apply process_message_local.
  apply String.eqb_neq in Hev1. apply String.eqb_neq in Hev2.
  assert (Hpre : forallb keeps_round_parts (take_durable k (trace_of r)) = true).
  { apply killed_inside_trace; [reflexivity| |left; exact Hk].
    intros b st' p. destruct p; cbn [pre_ok]; rewrite ?Hev1, ?Hev2, ?andb_false_r; try discriminate; reflexivity. }
  rewrite (crash_after_state _ _ _ _ _ H).
  pose proof (fold_keeps_round_parts (m_round m) _ Hpre st st (lagree_refl _ st)) as Hl.
  (* the restart switches verification on, as it was *)
  apply apply_write_spares; [|exact Hl]. destruct Hl as (_ & Hs & _). cbn [spares]. rewrite Hs, Hskip. reflexivity.
Qed.

(* non-vacuity: the opening proposal on the example node issues two durable writes (pool, rounds);
   both crash points strictly inside satisfy the hypotheses *)
Example killed_inside_example :
  let st0 := empty_node 2%N 3%N in
  ns_skip st0 = false /\ m_event w_proposal <> ev_sgn_start /\ m_event w_proposal <> ev_sig_reconstructed /\
  count_durable (trace_of (process_board_message 777 {| h_st := st0; h_tr := [] |} w_proposal)) = 2%nat.
Proof. vm_compute. repeat split; discriminate. Qed.
