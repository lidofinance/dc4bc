(* Facts about the node model: C09 (what a valid signature is; a message past the head has verified
   under the payload of the round that was loaded), C10 (an accepted contribution is its sender's), C15 (what an accepted operation result posts), C18 (what unusable
   input leaves behind). *)
From Coq Require Import String List ZArith Bool.
Require Import Fsm.Types Fsm.Actions Fsm.Provider Node.Types Node.Process Node.Walk.
Import ListNotations.
Local Open Scope string_scope.
Local Open Scope list_scope.

(* the signature on m is the registered key's signature over exactly m's data *)
Definition valid_sig (p : payload) (m : message) : Prop :=
  m_sender m <> 0%N /\
  exists pk, tget (p_pubkeys p) (m_sender m) = Some pk /\ m_sig m = SigBy pk (m_data m).

Lemma verify_ok_valid st p m : ns_skip st = false -> verify_ok st p m = true -> valid_sig p m.
Proof.
  unfold verify_ok. intros -> H.
  apply andb_prop in H as [Hs H]. apply negb_true_iff in Hs. apply N.eqb_neq in Hs.
  destruct (tget (p_pubkeys p) (m_sender m)) as [pk|] eqn:Ek; [|discriminate].
  destruct (m_sig m) as [|k d|] eqn:Es; try discriminate.
  apply andb_prop in H as [H1 H2]. apply N.eqb_eq in H1. apply N.eqb_eq in H2. subst.
  split; [exact Hs|]. exists pk. split; [exact Ek|exact Es].
Qed.

(* the payload against which a message for round r is verified *)
Definition round_payload (st : nstate) (r : tok) (p : payload) : Prop :=
  match tget' (ns_rounds st) r with
  | Some d => exists i, from_dump d = LoadOk i /\ p = i_payload i
  | None => exists i, create = LoadOk i /\ p = i_payload i
  end.

Definition untouched (st : nstate) (r : res unit) : Prop :=
  match r with
  | ROk _ _ => False
  | RErr h => h = {| h_st := st; h_tr := [] |}
  | RPanic => True           (* a restore that panics: excluded for reachable rounds, see C18/C19 *)
  end.

Lemma load_round_payload st r i : load st r = LoadOk i -> round_payload st r (i_payload i).
Proof.
  unfold load, round_payload. destruct (tget' _ _); [|destruct (N.eqb r 0); [discriminate|]]; intros H; exists i; auto.
Qed.

(* a message that was not refused before the dispatch (unless it opens a round) carries the
   signature of the sender registered in the round it was loaded for *)
Lemma verified_under_loaded st m inst0 :
  ns_skip st = false -> m_event m <> ev_sig_init ->
  load st (m_round m) = LoadOk inst0 ->
  (String.eqb (m_event m) ev_sig_init = false -> verify_ok st (i_payload inst0) m = true) ->
  round_payload st (m_round m) (i_payload inst0) /\ valid_sig (i_payload inst0) m.
Proof.
  intros Hskip Hev El Hv. split; [apply load_round_payload; exact El|].
  apply (verify_ok_valid st); [exact Hskip|]. apply Hv, String.eqb_neq, Hev.
Qed.

(* C10: an accepted contribution names the participant registered for its (verified) sender *)
Definition registered_as (p : payload) (sender : tok) (pid : Z) : Prop :=
  sender <> 0%N /\ tget (p_ids p) sender = Some pid.

Lemma sender_is_participant_spec p sender req pid :
  req_pid req = Some pid -> sender_is_participant p sender req = true -> registered_as p sender pid.
Proof.
  unfold sender_is_participant. intros -> H. apply andb_prop in H as [H1 H2].
  apply negb_true_iff in H1. apply N.eqb_neq in H1. split; [exact H1|].
  destruct (tget (p_ids p) sender) as [id|]; [|discriminate]. apply Z.eqb_eq in H2. subst. reflexivity.
Qed.

(* the FSM stage judges the sender against the instance it is handed *)
Lemma accepted_tail_sender_registered put now st m req pid h0 inst h x :
  req_pid req = Some pid -> exec put (m_round m) h0 (tail_plan now st m req inst) = ROk h x ->
  registered_as (i_payload inst) (m_sender m) pid.
Proof.
  intros Hpid H. apply (sender_is_participant_spec _ _ req); [exact Hpid|].
  unfold tail_plan in H. destruct (sender_is_participant _ _ _); [reflexivity|discriminate].
Qed.

Theorem accepted_contribution_is_authentic put now st m req pid h o :
  ns_skip st = false -> m_event m <> ev_sig_init ->
  m_req m = MFsm req -> req_pid req = Some pid ->
  process_message put now {| h_st := st; h_tr := [] |} m = ROk h (Some o) ->
  (exists p, round_payload st (m_round m) p /\ valid_sig p m) /\
  (exists p', registered_as p' (m_sender m) pid).
Proof.
  intros Hskip He1 Hreq Hpid H. rewrite process_message_plan in H. unfold pm_plan in H. cbn [h_st] in H.
  destruct (pm_headP now st m) as [| |inst0 El Hv]; try discriminate.
  split; [exists (i_payload inst0); exact (verified_under_loaded st m inst0 Hskip He1 El Hv)|].
  (* an operation comes out of the FSM path only *)
  destruct (pm_dispatchP now m inst0) as [| | |[|s l] _ _|inst req' _ _ _ Hreq']; try discriminate.
  rewrite Hreq in Hreq'. inversion Hreq'; subst req'. exists (i_payload inst).
  exact (accepted_tail_sender_registered _ _ _ _ _ _ _ _ _ _ Hpid H).
Qed.

(* C15: only unaltered answers to pending operations are posted, exactly, by this node *)
Definition sends_of (user : tok) (msgs : list res_msg) : list write :=
  map (fun rm => WSend {| o_round := rm_round rm; o_event := rm_event rm; o_sender := user;
                          o_recipient := rm_recipient rm; o_sigs := []; o_data := rm_data rm |}) msgs.

Lemma post_trace msgs : forall h,
  h_tr (fold_left (fun h rm => emit h (WSend {| o_round := rm_round rm; o_event := rm_event rm;
                                                o_sender := ns_user (h_st h); o_recipient := rm_recipient rm;
                                                o_sigs := []; o_data := rm_data rm |})) msgs h)
  = h_tr h ++ sends_of (ns_user (h_st h)) msgs.
Proof.
  induction msgs as [|rm r IH]; intros h; cbn [fold_left sends_of map]; [symmetry; apply app_nil_r|].
  rewrite IH. cbn [emit h_tr]. rewrite <- app_assoc. reflexivity.
Qed.

Lemma delete_operation_ok h o h' :
  delete_operation h o = ROk h' tt ->
  In o (ns_deleted (h_st h')) /\ exists d l, h_tr h' = h_tr h ++ [WDeleted d; WOps l].
Proof.
  unfold delete_operation. destruct (existsb _ _); [discriminate|]. intros H; inversion H; subst h'.
  cbn [emit h_st h_tr apply_write ns_deleted]. split; [apply in_or_app; right; left; reflexivity|].
  rewrite <- app_assoc. eexists. eexists. reflexivity.
Qed.

Definition tombstone (stored : operation) (x : op_result) : operation :=
  {| op_round := op_round stored; op_type := op_type stored; op_payload := op_payload stored;
     op_reinit := op_reinit stored; op_extra := ox_extra x |}.

(* every accepted answer: the checks it passed, the tombstone it leaves, and - unless it is the
   "processed" answer of a reinit operation - its trace *)
Lemma execute_operation_ok st x h :
  execute_operation {| h_st := st; h_tr := [] |} x = ROk h tt ->
  ox_event x <> "" /\
  exists stored, find (op_same_id (ox_ident x)) (ops_visible st) = Some stored /\
    op_type stored = op_type (ox_op x) /\ ox_stored_bytes x = ox_bytes x /\ op_round stored = op_round (ox_op x) /\
    In (tombstone stored x) (ns_deleted (h_st h)) /\
    (ox_event x <> ev_processed ->
     exists d o, h_tr h = sends_of (ns_user st) (ox_msgs x) ++ [WDeleted d; WOps o]).
Proof.
  unfold execute_operation. cbn [h_st].
  destruct (String.eqb (ox_event x) "") eqn:Ee; [discriminate|]. apply String.eqb_neq in Ee.
  destruct (find (op_same_id (ox_ident x)) (ops_visible st)) as [stored|]; [|discriminate].
  destruct (negb (op_same_type stored (ox_op x) && N.eqb (ox_stored_bytes x) (ox_bytes x) && N.eqb (op_round stored) (op_round (ox_op x)))) eqn:Eq; [discriminate|].
  apply negb_false_iff in Eq. apply andb_prop in Eq as [Eq Er]. apply andb_prop in Eq as [Et Eb].
  apply N.eqb_eq in Er. apply String.eqb_eq in Et. apply N.eqb_eq in Eb.
  destruct (String.eqb (ox_event x) ev_processed && _); [discriminate|].
  destruct (if negb (String.eqb (ox_event x) ev_processed) then _ else _) as [hb []|hb|] eqn:Ebody; try discriminate.
  intros H. apply delete_operation_ok in H as [Hin (d & o & Htr)].
  split; [exact Ee|]. exists stored. repeat split; auto.
  intros Hnp. apply String.eqb_neq in Hnp. rewrite Hnp in Ebody. inversion Ebody; subst hb.
  exists d, o. rewrite Htr, post_trace. reflexivity.
Qed.

(* C18: what a refused board message can leave behind *)
Definition no_state_writes (tr : list write) : Prop :=
  forall w, In w tr -> match w with WSrc _ _ _ | WSend _ => True | _ => False end.

Definition needs_lazy_restart (s : string) : bool := has_suffix s "_error" || has_suffix s "_timeout".

(* a reinitialisation message that cannot be decoded, or that names no round (blank identifier),
   is refused before anything is written; one that names a round the node already holds is
   absorbed without a write *)
Theorem unusable_reinit_writes_nothing now st r :
  (match r with None => True | Some rd => rd_id rd = 0%N \/ tget' (ns_rounds st) (rd_id rd) <> None end) ->
  match reinit_dkg now {| h_st := st; h_tr := [] |} r with
  | ROk h _ | RErr h => h = {| h_st := st; h_tr := [] |}
  | RPanic => False
  end.
Proof.
  intros H. unfold reinit_dkg. destruct r as [rd|]; [|reflexivity].
  destruct (N.eqb (rd_id rd) 0) eqn:E0; [reflexivity|].
  destruct H as [H|H]; [rewrite H in E0; discriminate|].
  cbn [h_st]. destruct (tget' (ns_rounds st) (rd_id rd)); [reflexivity|contradiction].
Qed.

