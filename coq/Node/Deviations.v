(* C09, non-vacuity on the example node of Node/Local.v (round 9 proposed to users 2 and 5 with keys
   3 and 6): the genuine confirmation of user 2 is accepted; with another payload, with user 5's
   key, without signature, with a garbled one, or in the name of an unknown or blank user it is
   refused and nothing is written.  The general theorem and its corollaries are in
   Props/C09.v. *)
From Coq Require Import List ZArith.
Require Import Fsm.Types Fsm.Actions Node.Types Node.Process Node.Local.
Import ListNotations.

Definition dv_node : nstate := run_msgs (empty_node 2%N 3%N) [(777%Z, ex_prop 9%N)].
Definition dv_with (data : tok) (s : sigv) (sender : tok) : message :=
  {| m_round := 9%N; m_event := ev_sig_confirm; m_data := data; m_req := MFsm (RPart 0 10); m_sig := s;
     m_sender := sender; m_recipient := 0%N; m_tasks := None |}.
Definition dv_refused (m : message) : Prop :=
  node_step 777%Z dv_node (InMsg m) = RErr {| h_st := dv_node; h_tr := [] |}.
Example deviations_example :
  (exists h, node_step 777%Z dv_node (InMsg (dv_with 11%N (SigBy 3%N 11%N) 2%N)) = ROk h tt /\ h_tr h <> []) /\
  dv_refused (dv_with 12%N (SigBy 3%N 11%N) 2%N) /\
  dv_refused (dv_with 11%N (SigBy 6%N 11%N) 2%N) /\
  dv_refused (dv_with 11%N SigNone 2%N) /\
  dv_refused (dv_with 11%N SigJunk 2%N) /\
  dv_refused (dv_with 11%N (SigBy 3%N 11%N) 99%N) /\
  dv_refused (dv_with 11%N (SigBy 3%N 11%N) 0%N).
Proof.
  split; [eexists; split; [vm_compute; reflexivity|vm_compute; discriminate]|].
  repeat split; vm_compute; reflexivity.
Qed.
