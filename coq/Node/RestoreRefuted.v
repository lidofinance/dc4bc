(* C20, the part that is FALSE of the code (open finding C20-reinit-replays-unverified-message):
   "a node restored from the dump of a round holds that round as the live nodes do" fails for a
   dump containing a message the live nodes refused for its signature.  Concrete witness on the
   example node of Node/Local.v: a decline in participant 0's name, signed by nobody, lies on the
   board after the opening proposal; every live node refuses it and keeps waiting for
   confirmations, the node restored from the very same log cancels the round. *)
From Coq Require Import String List ZArith.
Require Import Fsm.Types Fsm.Actions Fsm.Provider Node.Types Node.Process Node.Local.
Import ListNotations.

Definition forged_decline : message :=
  {| m_round := 9%N; m_event := ev_sig_decline; m_data := 11%N; m_req := MFsm (RPart 0 10); m_sig := SigJunk;
     m_sender := 2%N; m_recipient := 0%N; m_tasks := None |}.

Definition the_log : list message := [ex_prop 9%N; forged_decline].

Definition round_state (st : nstate) (r : tok) : option string :=
  match tget' (ns_rounds st) r with Some d => Some (d_state d) | None => None end.

(* a live node polls a log, verification on *)
Definition live_of (log : list message) : nstate := run_msgs (empty_node 2%N 3%N) (map (fun m => (777%Z, m)) log).

(* a fresh node is handed the same log as a reinit file of round 9 (same participants, same keys) *)
Definition restored_of (log : list message) : option nstate :=
  state_after (empty_node 2%N 3%N)
    (reinit_dkg 777%Z {| h_st := empty_node 2%N 3%N; h_tr := [] |}
       (Some {| rd_id := 9%N; rd_parts := [{| rp_name := 2%N; rp_newkey := 3%N |}; {| rp_name := 5%N; rp_newkey := 6%N |}];
                rd_msgs := log; rd_hash := 0%N |})).

Definition restored_state (log : list message) : option string :=
  match restored_of log with Some st => round_state st 9%N | None => None end.

Local Open Scope string_scope.
Local Open Scope list_scope.

(* the live nodes refused the forged decline, writing nothing ... *)
Theorem live_nodes_refuse_the_forged_decline :
  exists h, (process_message true 777%Z {| h_st := live_of [ex_prop 9%N]; h_tr := [] |} forged_decline = RErr h) /\ (h_tr h = []).
Proof. eexists. split; vm_compute; reflexivity. Qed.

(* ... so the live round is still waiting for confirmations, while the restored one is cancelled *)
Theorem restored_round_differs_from_live_round :
  round_state (live_of the_log) 9%N = Some "state_sig_proposal_await_participants_confirmations" /\
  restored_state the_log = Some "state_sig_proposal_canceled_by_participant".
Proof. split; vm_compute; reflexivity. Qed.

(* control: without the forged message the two agree *)
Theorem without_the_forged_message_they_agree :
  restored_state [ex_prop 9%N] = round_state (live_of [ex_prop 9%N]) 9%N /\ restored_state [ex_prop 9%N] <> None.
Proof. split; vm_compute; [reflexivity|discriminate]. Qed.

