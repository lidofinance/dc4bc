(* C01 / C03: which entry the export shows.  The repository replaces the entry of the same user and
   appends every other one, so the first entry of a slot never changes hands: once the proposal has
   filed its stub there (under the proposer's name, with the proposed payload and file), only a
   broadcast by that same user can replace it, and what the export shows for the message is the
   stub until then and that user's LATEST broadcast for the slot afterwards. *)
From Coq Require Import List NArith Bool.
Require Import Fsm.Types Node.Types Node.Process Node.Assoc Node.Export.
Import ListNotations.

Definition in_slot_of (x s : rsig) : bool :=
  N.eqb (rs_batch s) (rs_batch x) && N.eqb (rs_msgid s) (rs_msgid x) && N.eqb (rs_user x) (rs_user s).

(* the latest element of l filed by x's user in x's slot, x itself if there is none *)
Definition latest (x : rsig) (l : list rsig) : rsig :=
  fold_left (fun cur s => if in_slot_of cur s then s else cur) l x.

(* the entries filed in slot (batch, id) of a store, in the repository's order; add_sig is
   reasoned about through entries_add_sig only *)
Definition entries (store : sigstore) (batch id : tok) : list rsig :=
  match tget' store batch with
  | Some b => match tget' b id with Some e => e | None => [] end
  | None => []
  end.

Lemma first_entry_hd store batch id : first_entry store batch id = hd_error (entries store batch id).
Proof.
  unfold first_entry, entries. destruct (tget' store batch) as [b|]; [|reflexivity].
  destruct (tget' b id) as [[|e r]|]; reflexivity.
Qed.

Lemma entries_add_sig store s batch id :
  entries (add_sig store s) batch id =
    if N.eqb (rs_batch s) batch && N.eqb (rs_msgid s) id then add_entry (entries store batch id) s
    else entries store batch id.
Proof.
  unfold entries, add_sig. rewrite tget_aput.
  destruct (N.eqb_spec (rs_batch s) batch) as [<-|_]; [|reflexivity]. rewrite tget_aput.
  destruct (N.eqb_spec (rs_msgid s) id) as [<-|_]; destruct (tget' store (rs_batch s)); reflexivity.
Qed.

Lemma hd_add_entry l s :
  hd_error (add_entry l s) =
    Some (match hd_error l with Some x => if N.eqb (rs_user x) (rs_user s) then s else x | None => s end).
Proof. destruct l as [|x r]; cbn [add_entry hd_error]; [reflexivity|]. destruct (N.eqb (rs_user x) (rs_user s)); reflexivity. Qed.

(* what one save does to the first entry of every slot *)
Lemma first_entry_add_sig_eq store s batch id :
  first_entry (add_sig store s) batch id =
    if N.eqb (rs_batch s) batch && N.eqb (rs_msgid s) id
    then Some (match first_entry store batch id with
               | Some x => if N.eqb (rs_user x) (rs_user s) then s else x
               | None => s
               end)
    else first_entry store batch id.
Proof.
  rewrite !first_entry_hd, entries_add_sig.
  destruct (N.eqb (rs_batch s) batch && N.eqb (rs_msgid s) id); [apply hd_add_entry|reflexivity].
Qed.

Lemma in_slot_keeps_slot x s :
  in_slot_of x s = true -> rs_batch s = rs_batch x /\ rs_msgid s = rs_msgid x /\ rs_user s = rs_user x.
Proof.
  intros H. apply andb_true_iff in H as [H Hu]. apply andb_true_iff in H as [Hb Hm].
  apply N.eqb_eq in Hb, Hm, Hu. auto.
Qed.

Lemma first_entry_add_sig store x s :
  first_entry store (rs_batch x) (rs_msgid x) = Some x ->
  first_entry (add_sig store s) (rs_batch x) (rs_msgid x) = Some (if in_slot_of x s then s else x).
Proof.
  intros H. rewrite first_entry_add_sig_eq, H. unfold in_slot_of.
  destruct (N.eqb (rs_batch s) (rs_batch x) && N.eqb (rs_msgid s) (rs_msgid x)); reflexivity.
Qed.

(* whatever is saved afterwards, in whatever order and by whomever *)
Theorem first_entry_after_saves l : forall store x,
  first_entry store (rs_batch x) (rs_msgid x) = Some x ->
  first_entry (fold_left add_sig l store) (rs_batch x) (rs_msgid x) = Some (latest x l).
Proof.
  induction l as [|s r IH]; intros store x H; [exact H|]. cbn [fold_left]. unfold latest. cbn [fold_left].
  pose proof (first_entry_add_sig store x s H) as H1.
  destruct (in_slot_of x s) eqn:E.
  - destruct (in_slot_keeps_slot x s E) as (Eb & Em & _). rewrite <- Eb, <- Em in *. apply IH. exact H1.
  - apply IH. exact H1.
Qed.

(* what holds of x, and of every element of l that replaces an entry it holds of, holds of latest x l *)
Lemma latest_invariant (P : rsig -> Prop) l : forall x,
  P x -> (forall y s, P y -> In s l -> in_slot_of y s = true -> P s) -> P (latest x l).
Proof.
  induction l as [|s r IH]; intros x Hx Hstep; [exact Hx|].
  change (P (latest (if in_slot_of x s then s else x) r)). apply IH.
  - destruct (in_slot_of x s) eqn:E; [exact (Hstep x s Hx (or_introl eq_refl) E)|exact Hx].
  - intros y s' Hy Hin. apply Hstep; [exact Hy|right; exact Hin].
Qed.

(* so: nobody but the user of the first entry changes what is exported ... *)
Theorem others_never_change_the_export l store x :
  first_entry store (rs_batch x) (rs_msgid x) = Some x ->
  (forall s, In s l -> rs_batch s = rs_batch x -> rs_msgid s = rs_msgid x -> rs_user s <> rs_user x) ->
  first_entry (fold_left add_sig l store) (rs_batch x) (rs_msgid x) = Some x.
Proof.
  intros H Hn. rewrite (first_entry_after_saves l store x H). f_equal.
  apply (latest_invariant (fun y => y = x)); [reflexivity|]. intros y s -> Hs E.
  destruct (in_slot_keeps_slot x s E) as (Eb & Em & Eu). destruct (Hn s Hs Eb Em Eu).
Qed.

(* ... the exported entry keeps the slot and the user of the first one ... *)
Lemma latest_same_owner x l :
  rs_batch (latest x l) = rs_batch x /\ rs_msgid (latest x l) = rs_msgid x /\ rs_user (latest x l) = rs_user x.
Proof.
  apply (latest_invariant (fun y => rs_batch y = rs_batch x /\ rs_msgid y = rs_msgid x /\ rs_user y = rs_user x)); [auto|].
  intros y s (<- & <- & <-) _ E. exact (in_slot_keeps_slot y s E).
Qed.

(* ... and it is either the first entry itself or one of the saved ones *)
Lemma latest_is_saved x l : latest x l = x \/ In (latest x l) l.
Proof.
  apply (latest_invariant (fun y => y = x \/ In y l)); [left; reflexivity|]. intros y s _ Hin _. right; exact Hin.
Qed.

(* the export function itself: one line per message id of the batch, in the order of the batch,
   each the first entry; a refusal exactly when some message id has no entry *)
Theorem export_batch_spec b out :
  export_batch b = Some out ->
  map fst out = map fst b /\
  forall id ex, In (id, ex) out -> exists e r, In (id, e :: r) b /\ ex = export_entry e.
Proof.
  revert out. induction b as [|[id entries] r IH]; intros out H; cbn [export_batch] in H.
  - inversion H. split; [reflexivity|]. intros ? ? [].
  - destruct entries as [|e es]; [discriminate|].
    destruct (export_batch r) as [o|]; [|discriminate]. inversion H; subst out. clear H.
    destruct (IH o eq_refl) as [Hk Hv]. split; [cbn [map fst]; f_equal; exact Hk|].
    intros id' ex [Heq|Hin].
    + inversion Heq; subst. exists e, es. split; [left; reflexivity|reflexivity].
    + destruct (Hv id' ex Hin) as (e' & r' & Hi & He). exists e', r'. split; [right; exact Hi|exact He].
Qed.

Theorem export_batch_refuses_iff b :
  export_batch b = None <-> exists id, In (id, []) b.
Proof.
  induction b as [|[id entries] r IH]; cbn [export_batch].
  - split; [discriminate|intros [? []]].
  - destruct entries as [|e es].
    + split; [intros _; exists id; left; reflexivity|reflexivity].
    + destruct (export_batch r) as [o|].
      * split; [discriminate|]. intros [id' [Heq|Hin]]; [discriminate|].
        assert (Some o = None) by (apply IH; exists id'; exact Hin). discriminate.
      * split; [|reflexivity]. intros _. destruct (proj1 IH eq_refl) as [id' Hin]. exists id'. right; exact Hin.
Qed.

(* a list of entries of one batch with pairwise different message ids, saved into a store that has
   nothing under those ids yet: each of them is the first entry of its slot afterwards *)
Theorem fresh_entries_come_first l : forall store batch,
  (forall s, In s l -> rs_batch s = batch) -> NoDup (map rs_msgid l) ->
  (forall s, In s l -> first_entry store batch (rs_msgid s) = None) ->
  forall s, In s l -> first_entry (fold_left add_sig l store) batch (rs_msgid s) = Some s.
Proof.
  (* the head is filed first and stays first, since every later id differs
     (others_never_change_the_export); the tail by induction, its ids still fresh for the same reason *)
  induction l as [|x r IH]; intros store batch Hb Hnd Hfresh s Hin; [destruct Hin|].
  cbn [fold_left]. inversion Hnd as [|? ? Hnotin Hnd']; subst.
  assert (Hbx : rs_batch x = batch) by (apply Hb; left; reflexivity).
  destruct Hin as [->|Hin].
  - rewrite <- Hbx. apply others_never_change_the_export.
    + rewrite first_entry_add_sig_eq, !N.eqb_refl, Hbx, Hfresh by (left; reflexivity). reflexivity.
    + intros y Hy _ Em _. apply Hnotin. rewrite <- Em. apply in_map. exact Hy.
  - apply IH; try assumption.
    + intros y Hy. apply Hb. right; exact Hy.
    + intros y Hy. rewrite first_entry_add_sig_eq.
      destruct (N.eqb_spec (rs_msgid x) (rs_msgid y)) as [Em|_].
      * destruct Hnotin. rewrite Em. apply in_map. exact Hy.
      * rewrite andb_false_r. apply Hfresh. right; exact Hy.
Qed.

(* a concrete batch: the proposer P files stubs for two messages, B's and C's reconstructions
   arrive, then P's own, then a late one of B: the export shows the stubs (signature 0) until P's
   broadcast, P's signature afterwards, and never B's or C's *)
Local Open Scope N_scope.
Definition ex_stub (id : tok) : rsig :=
  {| rs_file := id; rs_batch := 7; rs_msgid := id; rs_payload := (100 + id)%N; rs_sig := 0; rs_user := 1; rs_round := 9 |}.
Definition ex_from (u id sg : tok) : rsig :=
  {| rs_file := id; rs_batch := 7; rs_msgid := id; rs_payload := (100 + id)%N; rs_sig := sg; rs_user := u; rs_round := 9 |}.
Definition ex_exports (l : list rsig) : option (list (tok * exported)) :=
  match tget' (fold_left add_sig l []) 7%N with Some b => export_batch b | None => None end.

Example export_example :
  ex_exports [ex_stub 1; ex_stub 2; ex_from 2 1 55; ex_from 3 1 55; ex_from 2 2 66] =
    Some [(1%N, {| ex_payload := 101; ex_sig := 0; ex_file := 1 |}); (2%N, {| ex_payload := 102; ex_sig := 0; ex_file := 2 |})]
  /\ ex_exports [ex_stub 1; ex_stub 2; ex_from 2 1 55; ex_from 1 1 55; ex_from 1 2 66; ex_from 2 2 77] =
    Some [(1%N, {| ex_payload := 101; ex_sig := 55; ex_file := 1 |}); (2%N, {| ex_payload := 102; ex_sig := 66; ex_file := 2 |})].
Proof. split; vm_compute; reflexivity. Qed.
