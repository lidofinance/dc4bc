(* C15 "once": an answered operation is retired - the same answer (or any answer carrying the
   same operation id) is refused afterwards. *)
From Coq Require Import String List Bool.
Require Import Node.Types Node.Process Node.Assoc Node.Facts.
Import ListNotations.

Lemma find_none_all {A} (f : A -> bool) l : (forall x, In x l -> f x = false) -> find f l = None.
Proof. induction l as [|a l IH]; intros H; cbn; [reflexivity|]. rewrite (H a (or_introl eq_refl)). apply IH. intros x Hx. apply H. right. exact Hx. Qed.

(* once an operation with this id has a tombstone, nothing with this id is visible *)
Lemma tombstone_hides st tomb o :
  In tomb (ns_deleted st) -> op_same_id o tomb = true ->
  find (op_same_id o) (ops_visible st) = None.
Proof.
  intros Hin Hid. apply find_none_all. intros y Hy. apply filter_In in Hy as [_ Hf].
  apply negb_true_iff in Hf.
  destruct (op_same_id o y) eqn:E; [|reflexivity]. exfalso.
  assert (Hex : existsb (op_same_id y) (ns_deleted st) = true).
  { apply existsb_exists. exists tomb. split; [exact Hin|]. apply (op_same_id_trans y o tomb); [apply op_same_id_sym; exact E|exact Hid]. }
  congruence.
Qed.

Theorem answered_operation_is_retired st x h x' :
  execute_operation {| h_st := st; h_tr := [] |} x = ROk h tt ->
  op_same_id (ox_ident x') (ox_ident x) = true ->
  execute_operation {| h_st := h_st h; h_tr := [] |} x' = RErr {| h_st := h_st h; h_tr := [] |}.
Proof.
  intros Hok Hid.
  destruct (execute_operation_ok st x h Hok) as (_ & stored & Ef & _ & _ & _ & Hin & _).
  apply find_some in Ef as [_ Ht].
  unfold execute_operation. cbn [h_st].
  destruct (String.eqb (ox_event x') ""); [reflexivity|].
  rewrite (tombstone_hides (h_st h) _ (ox_ident x') Hin (op_same_id_trans _ _ _ Hid Ht)). reflexivity.
Qed.

(* the event "processed" (nothing to post) answers a reinit operation only: under any other pending
   operation the result is refused and nothing changes - the operation stays pending *)
Theorem processed_event_only_for_reinit st x stored :
  find (op_same_id (ox_ident x)) (ops_visible st) = Some stored ->
  ox_event x = ev_processed -> op_type stored <> ev_reinit ->
  execute_operation {| h_st := st; h_tr := [] |} x = RErr {| h_st := st; h_tr := [] |}.
Proof.
  intros Hf He Ht. unfold execute_operation. cbn [h_st]. rewrite He.
  change (String.eqb ev_processed "") with false. rewrite Hf.
  destruct (negb _); [reflexivity|].
  rewrite String.eqb_refl. apply String.eqb_neq in Ht. rewrite Ht. reflexivity.
Qed.
