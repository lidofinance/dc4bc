(* C10, the part that is FALSE of the code (open findings C10-cross-round-replay and
   C10-cross-event-replay): the ed25519 signature of a board message covers its payload bytes only
   (storage.Message.Bytes() is Data; model: verify_ok compares the signed data with m_data), so the
   round identifier and the event name travel unsigned.  Concrete witnesses on the example node of
   Node/Local.v: a genuine confirmation its author produced for round 8 is accepted, signature
   unchanged, in round 9 (same participants) and as a DECLINE of round 8. *)
From Coq Require Import String List ZArith.
Require Import Fsm.Actions Fsm.Provider Node.Types Node.Process Node.Local.
Import ListNotations.

(* two rounds proposed to the same participants, nobody has answered yet *)
Definition two_rounds : nstate := run_msgs (empty_node 2%N 3%N) [(777%Z, ex_prop 9%N); (777%Z, ex_prop 8%N)].

(* what participant 0 (user 2, key 3) signed and posted: the confirmation of round 8 *)
Definition genuine : message := ex_confirm 8%N.
(* the same bytes and signature, re-posted by anybody under the other round's identifier ... *)
Definition replayed_round : message :=
  {| m_round := 9%N; m_event := m_event genuine; m_data := m_data genuine; m_req := m_req genuine; m_sig := m_sig genuine;
     m_sender := m_sender genuine; m_recipient := m_recipient genuine; m_tasks := m_tasks genuine |}.
(* ... or under another event name of the same request shape *)
Definition replayed_event : message :=
  {| m_round := m_round genuine; m_event := ev_sig_decline; m_data := m_data genuine; m_req := m_req genuine; m_sig := m_sig genuine;
     m_sender := m_sender genuine; m_recipient := m_recipient genuine; m_tasks := m_tasks genuine |}.

Definition same_signed_bytes (m m' : message) : Prop :=
  m_sig m = m_sig m' /\ m_data m = m_data m' /\ m_sender m = m_sender m' /\ m_req m = m_req m'.

Definition accepted (st : nstate) (m : message) : Prop :=
  exists h o, process_message true 777%Z {| h_st := st; h_tr := [] |} m = ROk h o /\
              tget' (ns_rounds (h_st h)) (m_round m) <> tget' (ns_rounds st) (m_round m).

Definition dstate_after (st : nstate) (m : message) : option string :=
  match process_message true 777%Z {| h_st := st; h_tr := [] |} m with
  | ROk h _ => match tget' (ns_rounds (h_st h)) (m_round m) with Some d => Some (d_state d) | None => None end
  | _ => None
  end.

(* both halves of `accepted` for a concrete node and message, by evaluation *)
Ltac show_accepted :=
  unfold accepted; eexists; eexists; split; [vm_compute; reflexivity|vm_compute; discriminate].

(* round 9 accepts what was signed for round 8 *)
Theorem cross_round_replay_accepted :
  same_signed_bytes genuine replayed_round /\ m_round genuine <> m_round replayed_round /\
  m_event genuine = m_event replayed_round /\
  accepted two_rounds genuine /\ accepted two_rounds replayed_round.
Proof.
  split; [repeat split|]. split; [vm_compute; discriminate|]. split; [reflexivity|].
  split; show_accepted.
Qed.

(* the confirmation, re-labelled, is accepted as a decline: the round its author agreed to is
   cancelled in the author's name *)
Theorem cross_event_replay_accepted :
  same_signed_bytes genuine replayed_event /\ m_event genuine <> m_event replayed_event /\
  m_round genuine = m_round replayed_event /\
  accepted two_rounds replayed_event /\
  dstate_after two_rounds genuine = Some "state_sig_proposal_await_participants_confirmations"%string /\
  dstate_after two_rounds replayed_event = Some "state_sig_proposal_canceled_by_participant"%string.
Proof.
  split; [repeat split|]. split; [vm_compute; discriminate|]. split; [reflexivity|].
  split; [show_accepted|]. split; vm_compute; reflexivity.
Qed.

(* the statement of the property, negated, with the witnesses above *)
Theorem effective_only_for_its_round_refuted :
  exists st m m', same_signed_bytes m m' /\ m_round m <> m_round m' /\ m_event m = m_event m' /\
                  accepted st m /\ accepted st m'.
Proof. exists two_rounds, genuine, replayed_round. exact cross_round_replay_accepted. Qed.

Theorem effective_only_for_its_step_refuted :
  exists st m m', same_signed_bytes m m' /\ m_event m <> m_event m' /\ m_round m = m_round m' /\
                  accepted st m /\ accepted st m'.
Proof.
  exists two_rounds, genuine, replayed_event.
  destruct cross_event_replay_accepted as (A & B & C & D & _).
  destruct cross_round_replay_accepted as (_ & _ & _ & E & _). auto.
Qed.
