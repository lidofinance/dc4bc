(* C08 (frame): handling a board message of round r changes nothing observable of another round. *)
From Coq Require Import String List.
Require Import Fsm.Types Node.Types Node.Process Node.Local.
Import ListNotations.
Local Open Scope string_scope.
Local Open Scope list_scope.

(* what the node holds for round r': its FSM dump and its signature store *)
Definition same_at (r' : tok) (a b : nstate) : Prop :=
  tget' (ns_rounds a) r' = tget' (ns_rounds b) r' /\ tget' (ns_sigs a) r' = tget' (ns_sigs b) r'.

Definition res_same {A} (r' : tok) (st : nstate) (x : res A) : Prop :=
  match x with
  | ROk h _ => same_at r' (h_st h) st
  | RErr h => same_at r' (h_st h) st
  | RPanic => True
  end.

Lemma lagree_same_at r' a b : lagree r' a b -> same_at r' a b.
Proof. intros (_ & _ & H3 & H4 & _). split; assumption. Qed.

(* every result of processMessage for a message of round r leaves round r' <> r as it was *)
Theorem process_message_frame put now st m r' :
  m_round m <> r' ->
  res_same r' st (process_message put now {| h_st := st; h_tr := [] |} m).
Proof.
  intros Hne.
  pose proof (process_message_other put now {| h_st := st; h_tr := [] |} m r' st Hne (lagree_refl r' st)) as Ho.
  destruct (process_message _ _ _ _); try apply lagree_same_at; exact Ho.
Qed.
