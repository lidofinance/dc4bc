(* C14, the unlocked programs of Node/Serial.v.  All 792 interleavings of the 7 store calls of the
   request with the 5 of PutOperation: the outcome is the sequential one unless the poller's pool
   write falls into the request's read-write window on `operations`, in which case the new operation
   is lost; a retired operation never returns. *)
From Coq Require Import List.
Require Import Node.Serial.
Import ListNotations.

Lemma all_interleavings_decided :
  map pending_after (interleavings 7 5) =
  map (fun sc => if in_lost_window sc then [] else [2]) (interleavings 7 5) /\
  length (interleavings 7 5) = 792.
Proof. vm_compute. split; reflexivity. Qed.
