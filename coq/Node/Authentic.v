(* C10: every board message accepted for a round that is in progress (not aborted) - whether or not
   it produces an operation - verified under its sender's registered key and names the participant
   registered for that sender. *)
From Coq Require Import String List ZArith Bool.
Require Import Fsm.Types Fsm.Actions Fsm.Provider Node.Types Node.Process Node.Walk Node.Facts.
Import ListNotations.
Local Open Scope string_scope.

Definition in_progress (st : nstate) (r : tok) : Prop :=
  forall d, tget' (ns_rounds st) r = Some d ->
    has_suffix (d_state d) "_error" = false /\ has_suffix (d_state d) "_timeout" = false.

Lemma in_progress_loaded st r i :
  in_progress st r -> load st r = LoadOk i ->
  has_suffix (i_dstate i) "_error" = false /\ has_suffix (i_dstate i) "_timeout" = false.
Proof.
  intros Hp El. unfold load in El. destruct (tget' (ns_rounds st) r) as [d|] eqn:Ed.
  - rewrite (proj2 (from_dump_dump d i El)). exact (Hp d Ed).
  - destruct (N.eqb r 0); [discriminate|]. rewrite create_created in El. inversion El. split; reflexivity.
Qed.

(* the key the signature verified under and the participant the request names are registered in ONE
   payload, the stored round's: a round in progress hands the message to the FSM as it was loaded *)
Theorem accepted_message_is_its_senders put now st m req pid h x :
  ns_skip st = false ->
  m_event m <> ev_sig_init -> m_event m <> ev_sig_reconstructed -> m_event m <> ev_sig_recon_failed ->
  m_req m = MFsm req -> req_pid req = Some pid ->
  in_progress st (m_round m) ->
  process_message put now {| h_st := st; h_tr := [] |} m = ROk h x ->
  exists p, round_payload st (m_round m) p /\ valid_sig p m /\ registered_as p (m_sender m) pid.
Proof.
  intros Hskip He1 He2 He3 Hreq Hpid Hprog H.
  apply String.eqb_neq in He2. apply String.eqb_neq in He3.
  rewrite process_message_plan in H. unfold pm_plan in H. cbn [h_st] in H.
  destruct (pm_headP now st m) as [| |inst0 El Hv]; try discriminate.
  destruct (verified_under_loaded st m inst0 Hskip He1 El Hv) as [Hp Hs].
  destruct (in_progress_loaded _ _ _ Hprog El) as [Hne Hnt].
  rewrite (pm_dispatch_plain now m inst0 Hne Hnt He2 He3), Hreq in H.
  exists (i_payload inst0). split; [exact Hp|]. split; [exact Hs|].
  exact (accepted_tail_sender_registered _ _ _ _ _ _ _ _ _ _ Hpid H).
Qed.
