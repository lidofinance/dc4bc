(* C08 (locality): what handling a board message of round r does to round r depends only on what
   the node holds for round r (its dump, its signature store, the batch sources kept for it), the
   node's identity and its verification switch - not on anything it holds for other rounds; and it
   leaves what the node holds for any other round as it was (the frame half, restated in Node/Frame.v).
   Together: a round's state is a function of its own sub-log. *)
From Coq Require Import String List ZArith Bool.
Require Import Fsm.Types Fsm.Actions Fsm.Provider Node.Types Node.Process Node.Assoc Node.Walk Node.Crash.
Import ListNotations.
Local Open Scope string_scope.
Local Open Scope list_scope.

(* two nodes agree on all that the handler of a message of round r reads *)
Definition lagree (r : tok) (a b : nstate) : Prop :=
  ns_user a = ns_user b /\ ns_skip a = ns_skip b /\
  tget' (ns_rounds a) r = tget' (ns_rounds b) r /\ tget' (ns_sigs a) r = tget' (ns_sigs b) r /\
  tget' (ns_srcs a) r = tget' (ns_srcs b) r.

Definition hrel (r : tok) (ha hb : hs) : Prop := lagree r (h_st ha) (h_st hb).

(* two results of the same kind, with agreeing states and the same value *)
Definition rrel {A} (r : tok) (x y : res A) : Prop :=
  match x, y with
  | ROk ha va, ROk hb vb => hrel r ha hb /\ va = vb
  | RErr ha, RErr hb => hrel r ha hb
  | RPanic, RPanic => True
  | _, _ => False
  end.

Lemma lagree_refl r a : lagree r a a.
Proof. repeat split. Qed.

Lemma reconstruct_local r a b p batch src parts :
  lagree r a b -> reconstruct a r p batch src parts = reconstruct b r p batch src parts.
Proof. intros (_ & _ & _ & _ & H5). unfold reconstruct. rewrite H5. reflexivity. Qed.

Lemma verify_ok_local r a b p m : lagree r a b -> verify_ok a p m = verify_ok b p m.
Proof. intros (_ & H2 & _). unfold verify_ok. rewrite H2. reflexivity. Qed.

(* the decision reads the node only through what lagree compares *)
Lemma tail_plan_local now a b m req inst :
  lagree (m_round m) a b -> tail_plan now a m req inst = tail_plan now b m req inst.
Proof.
  intros H. unfold tail_plan. destruct (negb _); [reflexivity|].
  destruct (pm_fsm now inst (m_event m) req) as [i3 r3 x3| |]; try reflexivity.
  destruct (String.eqb r3 st_partial_collected); [|reflexivity]. destruct x3 as [[]|]; try reflexivity.
  rewrite (reconstruct_local _ a b) by exact H. reflexivity.
Qed.

Lemma pm_plan_local now a b m : lagree (m_round m) a b -> pm_plan now a m = pm_plan now b m.
Proof.
  intros H. pose proof H as (_ & _ & H3 & _). unfold pm_plan, pm_head, load. rewrite H3.
  destruct (match tget' (ns_rounds b) (m_round m) with Some d => _ | None => _ end) as [inst| |]; try reflexivity.
  rewrite (verify_ok_local _ a b) by exact H. destruct (negb _ && negb _); [reflexivity|].
  destruct (pm_dispatch now m inst); try reflexivity. apply tail_plan_local. exact H.
Qed.

(* carrying the same plan out on two nodes that agree on the round *)
Lemma do_pre_local r ha hb p : hrel r ha hb -> hrel r (do_pre r ha p) (do_pre r hb p).
Proof.
  intros (H1 & H2 & H3 & H4 & H5). unfold hrel, lagree, do_pre, emit.
  destruct p; cbn [pre_write h_st apply_write ns_user ns_skip ns_rounds ns_sigs ns_srcs];
    rewrite ?aput_same, ?H4, ?H5; auto.
Qed.

Lemma save_fsm_local r ha hb d : hrel r ha hb -> hrel r (save_fsm ha r d) (save_fsm hb r d).
Proof.
  intros (H1 & H2 & H3 & H4 & H5). unfold hrel, lagree, save_fsm, emit. cbn [h_st apply_write ns_user ns_skip ns_rounds ns_sigs ns_srcs].
  rewrite !aput_same. auto.
Qed.

Lemma put_operation_state r h o x :
  lagree r (h_st h) x ->
  lagree r (match put_operation h o with ROk h' _ => h_st h' | RErr h' => h_st h' | RPanic => h_st h end) x.
Proof.
  intros H. unfold put_operation. destruct (existsb _ _); exact H.
Qed.
Lemma lagree_sym r a b : lagree r a b -> lagree r b a.
Proof. intros (H1 & H2 & H3 & H4 & H5). repeat split; congruence. Qed.

Lemma put_opt_agree put r h op x : lagree r (h_st h) x -> lagree r (h_st (put_opt put h op)) x.
Proof. intros H. destruct (put_opt_cases put h op) as [->|[l ->]]; exact H. Qed.

Lemma exec_local put r ha hb pl : hrel r ha hb -> rrel r (exec put r ha pl) (exec put r hb pl).
Proof.
  intros H. assert (Hps : forall ps, hrel r (fold_left (do_pre r) ps ha) (fold_left (do_pre r) ps hb)).
  { intros ps. revert ha hb H. induction ps as [|p ps IH]; intros ha hb H; [exact H|]. apply IH, do_pre_local, H. }
  destruct pl as [ps| |ps [[i op]|]]; cbn [exec rrel]; auto.
  split; [|reflexivity]. apply save_fsm_local.
  (* the pool write changes nothing lagree compares: on the left, then, turned round, on the right *)
  apply put_opt_agree, lagree_sym, put_opt_agree, lagree_sym, Hps.
Qed.

Theorem process_message_local put now a b m :
  lagree (m_round m) a b ->
  rrel (m_round m) (process_message put now {| h_st := a; h_tr := [] |} m) (process_message put now {| h_st := b; h_tr := [] |} m).
Proof.
  intros H. rewrite !process_message_plan. cbn [h_st]. rewrite (pm_plan_local now a b m H). apply exec_local. exact H.
Qed.

(* a message of round r leaves what the node holds for any other round r' as it was: the writes that
   leave alone what `lagree r'` compares *)
Definition spares (r' : tok) (st : nstate) (w : write) : Prop :=
  match w with
  | WRounds l => tget' l r' = tget' (ns_rounds st) r'
  | WSigs r _ | WSrc r _ _ => r <> r'
  | WSkip b => b = ns_skip st
  | _ => True
  end.

Lemma apply_write_spares r' st w x : spares r' st w -> lagree r' st x -> lagree r' (apply_write st w) x.
Proof.
  intros Hw (H1 & H2 & H3 & H4 & H5). unfold lagree.
  destruct w; cbn [spares apply_write ns_user ns_skip ns_rounds ns_sigs ns_srcs] in *;
    rewrite ?aput_other by exact Hw; rewrite ?Hw; auto.
Qed.

Lemma exec_other put r r' h0 pl x :
  r <> r' -> lagree r' (h_st h0) x ->
  match exec put r h0 pl with ROk h _ | RErr h => lagree r' (h_st h) x | RPanic => True end.
Proof.
  intros Hne H0. assert (Hps : forall ps, lagree r' (h_st (fold_left (do_pre r) ps h0)) x).
  { intros ps. revert h0 H0. induction ps as [|p ps IH]; intros h0 H0; [exact H0|]. apply IH.
    apply apply_write_spares; [destruct p; exact Hne || exact I|exact H0]. }
  destruct pl as [ps| |ps [[i op]|]]; cbn [exec]; auto.
  apply apply_write_spares; [apply aput_other; exact Hne|]. apply put_opt_agree, Hps.
Qed.

Theorem process_message_other put now h0 m r' x :
  m_round m <> r' -> lagree r' (h_st h0) x ->
  match process_message put now h0 m with ROk h _ | RErr h => lagree r' (h_st h) x | RPanic => True end.
Proof. intros Hne H. rewrite process_message_plan. apply exec_other; assumption. Qed.

(* one board message on a node, as a function on states (a panic persists nothing) *)
Definition step_msg (st : nstate) (nm : Z * message) : nstate :=
  match node_step (fst nm) st (InMsg (snd nm)) with
  | ROk h _ => h_st h
  | RErr h => h_st h
  | RPanic => st
  end.

Definition ragree (r : tok) (a b : nstate) : Prop :=
  tget' (ns_rounds a) r = tget' (ns_rounds b) r /\ tget' (ns_sigs a) r = tget' (ns_sigs b) r.

Lemma put_operation_lagree r h o x :
  match put_operation h o with ROk h' _ => lagree r (h_st h') x <-> lagree r (h_st h) x
                             | RErr h' => lagree r (h_st h') x <-> lagree r (h_st h) x | RPanic => True end.
Proof.
  unfold put_operation. destruct (existsb _ _); tauto.
Qed.

Lemma step_msg_local r a b nm : m_round (snd nm) = r -> lagree r a b -> lagree r (step_msg a nm) (step_msg b nm).
Proof.
  intros <- H. destruct nm as [now m]. unfold step_msg, node_step, process_board_message. cbn [fst snd].
  pose proof (process_message_local true now a b m H) as Hl.
  destruct (process_message true now {| h_st := a; h_tr := [] |} m) as [ha oa|ha|];
    destruct (process_message true now {| h_st := b; h_tr := [] |} m) as [hb ob|hb|]; try contradiction.
  - exact (proj1 Hl).
  - exact Hl.
  - exact H.
Qed.

(* a message of another round - any message, batch proposals included: nothing round r depends on
   changes *)
Lemma step_msg_other r a b nm :
  m_round (snd nm) <> r ->
  lagree r a b -> lagree r (step_msg a nm) b.
Proof.
  intros Hne H. unfold step_msg, node_step, process_board_message.
  pose proof (process_message_other true (fst nm) {| h_st := a; h_tr := [] |} (snd nm) r b Hne H) as Ho.
  destruct (process_message _ _ _ _); exact Ho || exact H.
Qed.

Definition run_msgs (st : nstate) (l : list (Z * message)) : nstate := fold_left step_msg l st.
Definition sublog (r : tok) (l : list (Z * message)) : list (Z * message) :=
  filter (fun nm => N.eqb (m_round (snd nm)) r) l.

(* THE SUB-LOG THEOREM: for every log (accepted, refused, duplicated, junk messages alike; any
   clock values), what a node holds for round r after the whole log is what it holds after the
   sub-sequence of round r's messages - whatever the messages of the other rounds are *)
Theorem round_state_is_function_of_sublog r l : forall a b,
  lagree r a b ->
  lagree r (run_msgs a l) (run_msgs b (sublog r l)).
Proof.
  induction l as [|nm l IH]; intros a b H; [exact H|].
  cbn [run_msgs fold_left sublog filter].
  destruct (N.eqb_spec (m_round (snd nm)) r) as [E|E].
  - apply IH. apply step_msg_local; assumption.
  - apply IH. apply step_msg_other; [exact E|exact H].
Qed.

(* non-vacuity: two rounds interleaved on one board (proposal, a confirmation, junk of the other
   round in between): round 9 after the whole log = round 9 after its own sub-log, and it has moved *)
Definition ex_confirm (r : tok) : message :=
  {| m_round := r; m_event := ev_sig_confirm; m_data := 11%N; m_req := MFsm (RPart 0 10); m_sig := SigBy 3%N 11%N;
     m_sender := 2%N; m_recipient := 0%N; m_tasks := None |}.
Definition ex_prop (r : tok) : message :=
  {| m_round := r; m_event := ev_sig_init; m_data := 10%N; m_req := MFsm (RList w_ps 2 0); m_sig := SigNone;
     m_sender := 2%N; m_recipient := 0%N; m_tasks := None |}.
Definition ex_log : list (Z * message) :=
  [(777%Z, ex_prop 9%N); (777%Z, ex_prop 8%N); (777%Z, ex_confirm 8%N); (777%Z, ex_confirm 9%N); (777%Z, ex_confirm 8%N)].
Example sublog_example :
  let a := empty_node 2%N 3%N in
  sublog 9%N ex_log = [(777%Z, ex_prop 9%N); (777%Z, ex_confirm 9%N)] /\
  tget' (ns_rounds (run_msgs a ex_log)) 9%N = tget' (ns_rounds (run_msgs a (sublog 9%N ex_log))) 9%N /\
  tget' (ns_rounds (run_msgs a ex_log)) 9%N <> None /\
  tget' (ns_rounds (run_msgs a ex_log)) 9%N <> tget' (ns_rounds (run_msgs a [(777%Z, ex_prop 9%N)])) 9%N.
Proof. vm_compute. repeat split; discriminate. Qed.
