(* The association lists of the node model (aput / tget'), and the identity of operations. *)
From Coq Require Import List ZArith Bool.
Require Import Fsm.Types Node.Types Node.Process.
Import ListNotations.

Lemma aput_same {A} (l : list (tok * A)) k v : tget' (aput l k v) k = Some v.
Proof.
  induction l as [|[j b] t IH]; cbn [aput tget'].
  - rewrite N.eqb_refl. reflexivity.
  - destruct (N.eqb j k) eqn:E; cbn [tget']; rewrite E; [reflexivity|exact IH].
Qed.

Lemma aput_other {A} (l : list (tok * A)) k v k' : k <> k' -> tget' (aput l k v) k' = tget' l k'.
Proof.
  intros Hne. apply N.eqb_neq in Hne. induction l as [|[j b] r IH]; cbn [aput tget'].
  - rewrite Hne. reflexivity.
  - destruct (N.eqb j k) eqn:E; cbn [tget'].
    + apply N.eqb_eq in E. subst j. rewrite Hne. reflexivity.
    + rewrite IH. reflexivity.
Qed.

Lemma tget_aput {A} (l : list (tok * A)) k v k' :
  tget' (aput l k v) k' = if N.eqb k k' then Some v else tget' l k'.
Proof. destruct (N.eqb_spec k k') as [<-|Hn]; [apply aput_same|apply aput_other; exact Hn]. Qed.

Lemma aput_keys_in {A} (l : list (tok * A)) k v x : In x (map fst (aput l k v)) -> x = k \/ In x (map fst l).
Proof.
  induction l as [|[j b] r IH]; cbn [aput map fst In].
  - intros [H|[]]; auto.
  - destruct (N.eqb j k); cbn [map fst In].
    + intros [H|H]; auto.
    + intros [H|H]; auto. destruct (IH H); auto.
Qed.

Lemma aput_nodup {A} (l : list (tok * A)) k v : NoDup (map fst l) -> NoDup (map fst (aput l k v)).
Proof.
  induction l as [|[j b] r IH]; cbn [aput map fst]; intros Hn.
  - constructor; [intros []|constructor].
  - inversion Hn as [|? ? Hnot Hr]; subst. destruct (N.eqb j k) eqn:E; cbn [map fst].
    + constructor; assumption.
    + constructor; [|apply IH; exact Hr].
      intros Hin. apply aput_keys_in in Hin as [->|Hin]; [rewrite N.eqb_refl in E; discriminate|contradiction].
Qed.

(* op_same_id is an equivalence: same round, same payload bytes *)
Lemma zlist_eqb_eq a b : zlist_eqb a b = true <-> a = b.
Proof.
  revert b. induction a as [|x a IH]; intros [|y b]; cbn; try (split; discriminate); [tauto|].
  rewrite andb_true_iff, Z.eqb_eq, IH. split; [intros [-> ->]; reflexivity|intros H; inversion H; auto].
Qed.
Lemma op_same_id_spec a b :
  op_same_id a b = true <-> op_round a = op_round b /\ op_payload_code a = op_payload_code b.
Proof. unfold op_same_id. rewrite andb_true_iff, N.eqb_eq, zlist_eqb_eq. tauto. Qed.
Lemma op_same_id_sym a b : op_same_id a b = true -> op_same_id b a = true.
Proof. rewrite !op_same_id_spec. intros [-> ->]. auto. Qed.
Lemma op_same_id_trans a b c : op_same_id a b = true -> op_same_id b c = true -> op_same_id a c = true.
Proof. rewrite !op_same_id_spec. intros [-> ->] [-> ->]. auto. Qed.

Lemma op_same_id_refl o : op_same_id o o = true.
Proof. apply op_same_id_spec. auto. Qed.
