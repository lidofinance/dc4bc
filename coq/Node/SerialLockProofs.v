(* C14, the two handlers under the mutex (Node/SerialLock.v): every schedule stays inside a listed set
   of states that is closed under both threads' steps, and in each of them the outcome is sequential. *)
From Coq Require Import List Bool Arith.
Require Import Node.SerialLock.
Import ListNotations.

Lemma nl_eqb_eq a b : nl_eqb a b = true -> a = b.
Proof.
  revert b. induction a as [|x a IH]; intros [|y b]; cbn; try discriminate; [reflexivity|].
  intros H. apply andb_prop in H as [H1 H2]. apply Nat.eqb_eq in H1. rewrite H1, (IH b H2). reflexivity.
Qed.

Lemma ls_eqb_eq s t : ls_eqb s t = true -> s = t.
Proof.
  unfold ls_eqb. intros H.
  repeat (apply andb_prop in H as [H ?]).
  destruct s as [[o1 d1] [pa da oa aa] [pb db ob ab] lk pa' pb'], t as [[o2 d2] [qa ea fa ga] [qb eb fb gb] lk2 qa' qb']. cbn in *.
  repeat match goal with
         | H : nl_eqb _ _ = true |- _ => apply nl_eqb_eq in H
         | H : Nat.eqb _ _ = true |- _ => apply Nat.eqb_eq in H
         | H : Bool.eqb _ _ = true |- _ => apply Bool.eqb_prop in H
         end.
  subst. reflexivity.
Qed.

Lemma ls_mem_In s l : ls_mem s l = true -> In s l.
Proof.
  unfold ls_mem. intros H. apply existsb_exists in H as (t & Hin & He). apply ls_eqb_eq in He. subst. exact Hin.
Qed.

(* the reachable set is closed under both threads' steps (checked by computation) *)
Lemma reachable_closed :
  forallb (fun s => ls_mem (lkstep s true) reachable && ls_mem (lkstep s false) reachable) reachable = true.
Proof. vm_compute. reflexivity. Qed.

Lemma init_reachable : ls_mem linit0 reachable = true.
Proof. vm_compute. reflexivity. Qed.

Theorem every_schedule_stays_reachable sched : In (lkrun sched) reachable.
Proof.
  unfold lkrun.
  assert (H : forall s, In s reachable -> In (fold_left lkstep sched s) reachable).
  { induction sched as [|w r IH]; intros s Hs; cbn [fold_left]; [exact Hs|].
    apply IH. pose proof reachable_closed as Hc. rewrite forallb_forall in Hc. specialize (Hc s Hs).
    apply andb_prop in Hc as [H1 H2]. destruct w; apply ls_mem_In; assumption. }
  apply H. apply ls_mem_In. exact init_reachable.
Qed.

(* in every reachable state: the two handlers are never inside their sections together, and once
   both have finished the new operation is pending and the retired one is not (checked by computation) *)
Lemma reachable_serialisable s :
  In s reachable ->
  ~ (l_apc s = 1 /\ l_bpc s = 1) /\ (l_apc s = 2 -> l_bpc s = 2 -> pending_of s = [2]).
Proof.
  assert (Hf : forallb (fun s => negb (Nat.eqb (l_apc s) 1 && Nat.eqb (l_bpc s) 1) &&
                                 (negb (Nat.eqb (l_apc s) 2 && Nat.eqb (l_bpc s) 2) || nl_eqb (pending_of s) [2]))
                       reachable = true) by (vm_compute; reflexivity).
  intros Hr. apply (proj1 (forallb_forall _ _) Hf), andb_prop in Hr as [H1 H2]. split.
  - intros [Ha Hb]. rewrite Ha, Hb in H1. discriminate.
  - intros Ha Hb. rewrite Ha, Hb in H2. apply nl_eqb_eq, H2.
Qed.

(* non-vacuity: a schedule that tries to switch inside the request's section still ends with [2] *)
Example locked_example :
  let s := lkrun [true; true; true; false; false; true; true; true; true; true; true; true; false; false; false; false; false; false; false] in
  l_apc s = 2 /\ l_bpc s = 2 /\ pending_of s = [2].
Proof. vm_compute. repeat split. Qed.
