(* C20: the tool that writes the reinit file (Node/GenReDKG.v) leaves the messages of the signing
   phase out one by one, keeps everything else in order, and takes round, threshold and participants
   from the opening proposal. *)
From Coq Require Import String List ZArith Bool.
Require Import Fsm.Types Fsm.Actions Node.Process Node.GenReDKG.
Import ListNotations.
Local Open Scope string_scope.
Local Open Scope list_scope.

Lemma signing_is_not_init e : is_signing_event e = true -> String.eqb e ev_sig_init = false.
Proof.
  intros H. destruct (String.eqb_spec e ev_sig_init) as [->|]; [|reflexivity].
  vm_compute in H. discriminate.
Qed.

Lemma gen_step_signing f m : is_signing_event (gm_event m) = true -> gen_step f m = f.
Proof. intros H. unfold gen_step. rewrite H, (signing_is_not_init _ H). reflexivity. Qed.

Lemma gen_step_msgs f m :
  gf_msgs (gen_step f m) = gf_msgs f ++ (if is_signing_event (gm_event m) then [] else [m]).
Proof.
  unfold gen_step. destruct (String.eqb (gm_event m) ev_sig_init); destruct (is_signing_event (gm_event m));
    rewrite ?app_nil_r; reflexivity.
Qed.

Lemma gen_fold_msgs log : forall f,
  gf_msgs (fold_left gen_step log f) = gf_msgs f ++ filter (fun m => negb (is_signing_event (gm_event m))) log.
Proof.
  induction log as [|m r IH]; intros f; cbn [fold_left filter]; [rewrite app_nil_r; reflexivity|].
  rewrite IH, gen_step_msgs. destruct (is_signing_event (gm_event m)); [rewrite app_nil_r; reflexivity|].
  rewrite <- app_assoc. reflexivity.
Qed.

(* round, threshold and participants of the file: set by an opening proposal, kept by everything else *)
Definition header (f : gfile) : tok * Z * list tok := (gf_id f, gf_threshold f, gf_parts f).

Lemma gen_step_header f m :
  header (gen_step f m) =
  if String.eqb (gm_event m) ev_sig_init then (gm_round m, gm_threshold m, gf_parts f ++ gm_parts m) else header f.
Proof. unfold gen_step. destruct (String.eqb (gm_event m) ev_sig_init), (is_signing_event (gm_event m)); reflexivity. Qed.

Lemma gen_fold_header ms : forall f,
  (forall m, In m ms -> gm_event m <> ev_sig_init) -> header (fold_left gen_step ms f) = header f.
Proof.
  induction ms as [|m t IH]; intros f Hms; [reflexivity|]. cbn [fold_left].
  rewrite IH, gen_step_header by (intros x Hx; apply Hms; right; exact Hx).
  rewrite (proj2 (String.eqb_neq _ _) (Hms m (or_introl eq_refl))). reflexivity.
Qed.

(* with ONE opening proposal in the log the file names that proposal's round, threshold and participants *)
Theorem gen_header_of_single_proposal l p r :
  gm_event p = ev_sig_init ->
  (forall m, In m (l ++ r) -> gm_event m <> ev_sig_init) ->
  let f := gen_redkg (l ++ p :: r) in
  gf_id f = gm_round p /\ gf_threshold f = gm_threshold p /\ gf_parts f = gm_parts p.
Proof.
  intros Hp Hno. unfold gen_redkg. rewrite fold_left_app. cbn [fold_left].
  set (f0 := {| gf_id := 0%N; gf_threshold := 0%Z; gf_parts := []; gf_msgs := [] |}).
  assert (H : header (fold_left gen_step r (gen_step (fold_left gen_step l f0) p)) = (gm_round p, gm_threshold p, gm_parts p)).
  { rewrite gen_fold_header by (intros m Hm; apply Hno, in_or_app; right; exact Hm).
    rewrite gen_step_header, Hp, String.eqb_refl.
    (* nothing before p set the participants *)
    pose proof (gen_fold_header l f0 (fun m Hm => Hno m (in_or_app _ _ _ (or_introl Hm)))) as Hl.
    injection Hl as _ _ ->. reflexivity. }
  injection H as -> -> ->. auto.
Qed.
