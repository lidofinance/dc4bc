(* C05 — a round advances only on unanimous delivery; any failure aborts it for good;
   an unacceptable event changes nothing.  The numbers (1), (2), (4) are the clauses of DESIGN.md,
   section 7, C05: unanimity and order, abort is final, rejection is a no-op. *)
From Coq Require Import String List ZArith Bool.
Require Import Fsm.EngineDefs Fsm.Types Fsm.Engine Fsm.EngineFacts Fsm.Actions Fsm.Provider Fsm.TableFacts
  Fsm.CancelFinal Fsm.RejectNoop.
Require Gen.Tables Fsm.Handover.
Import ListNotations.
Local Open Scope string_scope.

(* (2) abort is final: for every history, every event/request/clock value, a round that is in a
   cancelled state stays in that cancelled state *)
Theorem C05_cancel_final :
  forall d tr, In (d_state d) cancelled_states -> d_state (run_round d tr) = d_state d.
Proof. exact cancel_final. Qed.
Print Assumptions C05_cancel_final.

(* engine, any table and callbacks: Do moves the machine along at most three table transitions;
   with the regenerated tables this bounds what any event can do *)
Theorem C05_do_follows_table :
  forall t cb cur p ev req cur' rs rd err p',
  fsm_do t cb cur p ev req = DoRes cur' rs rd err p' -> hops3 t cur cur'.
Proof. intros t cb cur p ev req cur' rs rd err p' H. apply (fsm_do_res _ _ _ _ _ _ _ _ _ _ _ H). Qed.
Print Assumptions C05_do_follows_table.

(* (4) rejection is a no-op: a callback that refuses a request returns the payload unchanged,
   and an event without a route does not touch the instance at all *)
Theorem C05_refusal_keeps_payload :
  forall mach ev p req p', cb_by_name mach ev p req = CbErr p' -> p' = p.
Proof. exact callback_refusal_keeps_payload. Qed.
Print Assumptions C05_refusal_keeps_payload.

Theorem C05_no_route_noop :
  forall i ev req, match inst_do i ev req with IRoute i' => dump_of i' = dump_of i | _ => True end.
Proof.
  intros i ev req. unfold inst_do, inst_do_core.
  destruct (table_by_name (i_mach (handover i))); [|apply Handover.dump_of_handover].
  destruct (fsm_do _ _ _ _ _ _); auto. apply Handover.dump_of_handover.
Qed.
Print Assumptions C05_no_route_noop.

(* the regenerated tables are the ones the model's callbacks are written for *)
Theorem C05_tables_match_model :
  same_set model_cb_events_sig (ft_callbacks Gen.Tables.sigprop_table) &&
  same_set model_cb_events_dkg (ft_callbacks Gen.Tables.dkgprop_table) &&
  same_set model_cb_events_sgn (ft_callbacks Gen.Tables.signing_table) = true.
Proof. vm_compute. reflexivity. Qed.

Theorem C05_pool_is_source_states :
  incl_b pool_states_model Gen.Tables.pool_states && incl_b Gen.Tables.pool_states pool_states_model = true.
Proof. vm_compute. reflexivity. Qed.

(* non-vacuity: an honest three-participant ceremony reaches the signing-ready state in the model *)
Definition ps3 : list part_entry :=
  [ {| pe_name := 2; pe_name_len := 5; pe_pk := 3; pe_pk_len := 12; pe_dpk := 4; pe_dpk_len := 12 |};
    {| pe_name := 5; pe_name_len := 5; pe_pk := 6; pe_pk_len := 12; pe_dpk := 7; pe_dpk_len := 12 |};
    {| pe_name := 8; pe_name_len := 5; pe_pk := 9; pe_pk_len := 12; pe_dpk := 10; pe_dpk_len := 12 |} ]%N.
Definition honest_run : list (Z * string * request) :=
  (List.app [ (0, ev_sig_init, RList ps3 2 0) ]
   (List.app (map (fun i => (20, ev_sig_confirm, RPart i 10)) [0; 1; 2])
   (List.app (flat_map (fun k => map (fun i => (20, ev_dkg_confirm k, RData k i (20 + Z.to_N i)%N 10)) [0; 1; 2]) [0; 1; 2]%N)
   (map (fun i => (30, ev_dkg_confirm 3, RMaster i 30%N 31%N 10)) [0; 1; 2]))))%Z.
Example C05_honest_run_reaches_ready :
  d_state (run_round {| d_state := "__idle"; d_payload := empty_payload |} honest_run) = "stage_signing_idle".
Proof. vm_compute. reflexivity. Qed.

(* (1) unanimity: the proposal is validated only when every invited participant has accepted, and
   each key-generation phase is confirmed only when every participant of the quorum has confirmed it *)
Require Import Fsm.Unanimous.
Theorem C05_proposal_validated_unanimously :
  forall ev p req resp p', action_sig_validate ev p req = CbOk ev_sig_set_validated resp p' ->
  exists conf, p_sig p = Some conf /\ forall x, In x (sc_quorum conf) -> sp_status (snd x) = SigConfirmed.
Proof. exact sig_validated_unanimous. Qed.
Theorem C05_dkg_phase_confirmed_unanimously :
  forall k ev p req resp p', (k < 4)%N ->
  action_dkg_validate k ev p req = CbOk (ev_dkg_confirmed k) resp p' ->
  exists c, p_dkg p = Some c /\ forall x, In x (dc_quorum c) -> dp_status (snd x) = dkg_confirmed k.
Proof.
  intros k ev p req resp p' _ H. destruct (dkg_validate_confirmed k ev p req resp p' H) as (c & Hc & Hall & _).
  exists c. auto.
Qed.
Print Assumptions C05_dkg_phase_confirmed_unanimously.

(* (1) order: in the graph of the regenerated tables signing-ready is reachable from the entry
   state, but not around any of the phases, and no phase around its predecessor; from
   signing-ready no key-generation state is reachable again *)
Theorem C05_phases_in_order :
  reach_avoiding "" "__idle" "stage_signing_idle" = true /\
  forallb (fun s => negb (reach_avoiding s "__idle" "stage_signing_idle")) phase_order = true /\
  forallb (fun ab => negb (reach_avoiding (fst ab) "__idle" (snd ab))) (consecutive phase_order) = true /\
  forallb (fun s => negb (reach_avoiding "" "stage_signing_idle" s)) phase_order = true.
Proof. vm_compute. repeat split. Qed.
Print Assumptions C05_phases_in_order.

(* (node) the handler refines the dump-level step the theorems above are about: whenever
   processMessage ACCEPTS a message of a stored round (not in a cancelled state - there the lazy
   restart runs first), the round it persists is exactly round_step of the round it loaded and the
   operation it returns is the one built from round_step's response; likewise for the first
   message of a round the node has not seen, from the initial dump *)
Require Import Node.Types Node.Process Node.Refines.
Theorem C05_node_persists_round_step :
  forall put now st m d0 h' op,
  tget' (ns_rounds st) (m_round m) = Some d0 -> d_state d0 <> "" ->
  has_suffix (d_state d0) "_error" = false -> has_suffix (d_state d0) "_timeout" = false ->
  String.eqb (m_event m) ev_sig_reconstructed = false ->
  String.eqb (m_event m) ev_sig_recon_failed = false ->
  process_message put now {| h_st := st; h_tr := [] |} m = ROk h' op ->
  exists req d r x, m_req m = MFsm req /\ round_step now d0 (m_event m) req = SOk d r x /\
                    tget' (ns_rounds (h_st h')) (m_round m) = Some d /\ op = op_of (m_round m) r x.
Proof. intros put now st m d0 h' op Hd _. exact (process_message_refines_round_step put now st m d0 h' op Hd). Qed.
Theorem C05_node_first_message_round_step :
  forall put now st m h' op,
  tget' (ns_rounds st) (m_round m) = None ->
  String.eqb (m_event m) ev_sig_reconstructed = false ->
  String.eqb (m_event m) ev_sig_recon_failed = false ->
  process_message put now {| h_st := st; h_tr := [] |} m = ROk h' op ->
  exists req d r x, m_req m = MFsm req /\ round_step now initial_dump_of (m_event m) req = SOk d r x /\
                    tget' (ns_rounds (h_st h')) (m_round m) = Some d /\ op = op_of (m_round m) r x.
Proof. exact first_message_refines_round_step. Qed.
(* the same for a stored round in ANY state: when the round is found in a cancelled signing state
   the handler first applies the restart event (in memory), then the step *)
Theorem C05_node_persists_round_step_any_state :
  forall put now st m d0 h' op,
  tget' (ns_rounds st) (m_round m) = Some d0 -> d_state d0 <> "" ->
  String.eqb (m_event m) ev_sig_reconstructed = false ->
  String.eqb (m_event m) ev_sig_recon_failed = false ->
  process_message put now {| h_st := st; h_tr := [] |} m = ROk h' op ->
  (h' = {| h_st := st; h_tr := [] |} /\ op = None) \/
  exists req d1 d r x, m_req m = MFsm req /\ restarts now d0 d1 /\
                       round_step now d1 (m_event m) req = SOk d r x /\
                       tget' (ns_rounds (h_st h')) (m_round m) = Some d /\ op = op_of (m_round m) r x.
Proof. intros put now st m d0 h' op Hd _ E1 _. exact (process_message_refines_round_step_any_state put now st m d0 h' op Hd E1). Qed.
Print Assumptions C05_node_persists_round_step_any_state.
