(* C11 — a dealer whose private deal contradicts its public commitments is caught.
   (1) what an addressee accepts (Crypto/DealCheck.v, in the exponent; compared with real machines
   facing a deviating dealer on every run); (2) its error report ends the phase cancelled on a node
   (regenerated DKG table + actionConfirmationError); (3) a cancelled round never becomes ready. *)
From Coq Require Import List ZArith.
Require Import Crypto.Zr Crypto.DealCheck Crypto.DealCheckProofs.
Require Import Fsm.Types Fsm.Actions Fsm.Provider Fsm.DkgError Fsm.CancelFinal.
Require Gen.Tables Fsm.EngineFacts Fsm.Handover.
Import ListNotations.
Local Open Scope Z_scope.

(* a deal is accepted exactly when it can be read, is well-formed, carries exactly the broadcast
   commitments (same number, same values) and its share lies on the polynomial they commit to *)
Theorem C11_accept_iff_consistent :
  forall t bc d i, accepts t bc d i = true <->
  dl_fault d = FNone /\ map zr (dl_commits d) = map zr bc /\ zr (dl_share d) = eval_poly bc (i + 1).
Proof. exact accept_iff_consistent. Qed.
Print Assumptions C11_accept_iff_consistent.

(* every kind of deviation is refused: unreadable or malformed, commitments of another length,
   any single differing commitment (first, last, any position k), a share off the polynomial *)
Theorem C11_undecryptable_or_malformed_refused : forall t bc d i, dl_fault d <> FNone -> accepts t bc d i = false.
Proof. intros t bc d i H. apply refused_unless. intros (Hf & _). exact (H Hf). Qed.
Theorem C11_wrong_length_refused : forall t bc d i, length bc <> length (dl_commits d) -> accepts t bc d i = false.
Proof.
  intros t bc d i H. apply refused_unless. intros (_ & Hc & _). apply H.
  rewrite <- (map_length zr bc), <- Hc, map_length. reflexivity.
Qed.
Theorem C11_different_commitment_refused :
  forall t bc d i k, zr (nth k bc 0) <> zr (nth k (dl_commits d) 0) -> accepts t bc d i = false.
Proof.
  intros t bc d i k H. apply refused_unless. intros (_ & Hc & _). apply H.
  rewrite <- !(map_nth zr), Hc. reflexivity.
Qed.
Theorem C11_share_off_polynomial_refused :
  forall t bc d i, zr (dl_share d) <> eval_poly bc (i + 1) -> accepts t bc d i = false.
Proof. intros t bc d i H. apply refused_unless. intros (_ & _ & Hs). exact (H Hs). Qed.
(* while the honest dealer's deal is accepted *)
Theorem C11_honest_deal_accepted :
  forall coeffs i, accepts (length coeffs) coeffs {| dl_fault := FNone; dl_commits := coeffs; dl_share := eval_poly coeffs (i + 1) |} i = true.
Proof. intros coeffs i. apply own_polynomial_accepted. Qed.

(* the check does not count the coefficients: a polynomial with more coefficients than the threshold,
   announced and dealt consistently, is accepted here (the code has no length test: seen by running a
   higher-degree dealer against real machines) *)
Theorem C11_higher_degree_deal_accepted :
  forall coeffs extra i t,
  accepts t (coeffs ++ [extra])
          {| dl_fault := FNone; dl_commits := coeffs ++ [extra]; dl_share := eval_poly (coeffs ++ [extra]) (i + 1) |} i = true.
Proof. intros coeffs extra i t. apply own_polynomial_accepted. Qed.

(* the addressee reports the error as soon as one deal is refused; a normal answer means every
   deal it received was consistent with its dealer's broadcast commitments *)
Theorem C11_one_bad_deal_is_reported :
  forall t deals i bc d, In (bc, d) deals -> accepts t bc d i = false -> responses_result t deals i = ev_resp_err.
Proof. exact one_bad_deal_is_reported. Qed.
Theorem C11_response_ok_all_consistent :
  forall t deals i, responses_result t deals i = ev_resp_ok ->
  forall bc d, In (bc, d) deals ->
    dl_fault d = FNone /\ map zr (dl_commits d) = map zr bc /\ zr (dl_share d) = eval_poly bc (i + 1).
Proof. exact response_ok_all_consistent. Qed.
Print Assumptions C11_response_ok_all_consistent.

(* on every node the report of a participant still awaited in phase k cancels the phase ... *)
Theorem C11_error_report_cancels_phase :
  forall now k p c pid e created d,
  (k < 4)%N -> p_dkg p = Some c -> qget (dc_quorum c) pid = Some d -> dp_status d = dkg_await k ->
  0 <= pid -> is_zero_time created = false ->
  exists p', round_step now (dmk (st_await_of k) p) (ev_dkg_error k) (RError pid (Some e) created)
             = SOk (dmk (st_cancelled_of k) p') (st_cancelled_of k) None.
Proof.
  intros now k p c pid e created d Hk Hc Hq Hs Hp Hz.
  destruct (error_report_accepted k p c pid e created d Hc Hq Hs Hp Hz) as (p' & Hok).
  exists p'. exact (error_report_cancels now k p _ p' Hk Hok).
Qed.
Print Assumptions C11_error_report_cancels_phase.

(* ... and a cancelled round stays cancelled whatever follows: it never becomes signing-ready, so
   the master-key request (the only step that stores a share) is never issued for it *)
Theorem C11_cancelled_forever :
  forall d tr, In (d_state d) cancelled_states -> d_state (run_round d tr) = d_state d.
Proof. exact cancel_final. Qed.
Example C11_cancelled_states_cover :
  In (st_cancelled_of 2) cancelled_states /\ In (st_cancelled_of 3) cancelled_states.
Proof. split; apply Fsm.EngineFacts.mem_str_In; reflexivity. Qed.

(* the reinitialisation path: the airgapped machine carries the round's operations out again
   inside ONE reinit operation (Air/Reinit.v; repaired by d24be93: a refusal used to be swallowed) *)
Require Import Air.Reinit Air.ReinitProofs.

(* the reinit operation ends successfully only if EVERY embedded operation of its round was carried
   out (ri_ok for the responses step: every private deal consistent with its dealer's commitments)
   and the round's share is in the database *)
Theorem C11_reinit_success_means_all_accepted :
  forall outer m ops m', handle_reinit outer m ops = (m', true) ->
  (forall o, In o ops -> ri_round o = outer -> ri_ok o = true) /\ mem outer (rm_shares m') = true.
Proof.
  intros outer m ops m'. rewrite handle_reinit_eq. intros H. injection H as <- Hb. apply andb_prop in Hb as [Hok Hs].
  split; [|exact Hs]. intros o Hin Hr. destruct (ri_ok o) eqn:Hbad; [reflexivity|].
  (* the run ends at a refused operation of the round *)
  apply in_split in Hin as (pre & post & ->).
  rewrite (reinit_run_stops outer m pre o post Hr Hbad) in Hok. discriminate.
Qed.
Print Assumptions C11_reinit_success_means_all_accepted.

(* a refusal before the master-key step - a contradicting private deal at the responses step - ends
   the reinit operation unsuccessfully and leaves no key share for the round *)
Theorem C11_reinit_refusal_stores_no_share :
  forall outer m pre bad post,
  mem outer (rm_shares m) = false ->
  (forall o, In o pre -> ri_round o = outer -> ri_kind o <> IkMaster) ->
  ri_round bad = outer -> ri_ok bad = false ->
  let res := handle_reinit outer m (pre ++ bad :: post) in
  snd res = false /\ mem outer (rm_shares (fst res)) = false.
Proof.
  intros outer m pre bad post Hs Hpre Hr Hbad.
  rewrite handle_reinit_eq, (reinit_run_stops outer m pre bad post Hr Hbad).
  split; [reflexivity|].
  apply (reinit_run_inv (fun m' => mem outer (rm_shares m') = false)); [|exact Hs].
  intros m1 o Hin Ho H1. rewrite (rstep_shares m1 o (Hpre o Hin Ho)). exact H1.
Qed.

(* OPEN FINDING (known_findings: C11 error-report-lost): "the round ends cancelled on every node" fails
   on a node that is still in an earlier phase when the addressee's report arrives - the report of a
   later phase has no route there and is refused, whatever the round holds.  The deviating dealer
   decides the order of its (per-addressee) deal messages, so it can arrange exactly this. *)
Theorem C11_report_of_a_later_phase_refuted :
  forall now k j p req, (k < j)%N -> (j < 4)%N ->
  round_step now (dmk (st_await_of k) p) (ev_dkg_error j) req = SRej.
Proof.
  intros now k j p req Hkj Hj. apply (Handover.round_step_unrouted Gen.Tables.dkgprop_table).
  - exact (proj1 (await_handles_error k (N.lt_trans _ _ _ Hkj Hj))).
  - exact (later_phase_unrouted k j Hkj Hj).
Qed.
Print Assumptions C11_report_of_a_later_phase_refuted.
