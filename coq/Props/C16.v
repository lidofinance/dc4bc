(* C16 — the file bulletin board is an append-only, gap-free, totally ordered log. *)
From Coq Require Import List ZArith Bool.
Require Import Board.File Board.FileProofs Board.Raw Board.RawProofs.
From Coq Require Import Sorted.
Require Gen.Skeletons.
Import ListNotations.
Local Open Scope Z_scope.

(* the step list of `send` regenerated from the source is Lock; Seek; Count; Marshal; Write; Unlock
   and both scanners use the same 1 MiB limit *)
Theorem C16_send_steps : Gen.Skeletons.file_send_steps = expected_send.
Proof. reflexivity. Qed.
Theorem C16_limits : Gen.Skeletons.count_limit = LIMIT /\ Gen.Skeletons.read_limit = LIMIT.
Proof. split; reflexivity. Qed.

(* any number of concurrent writers, any schedule of their atomic steps: every entry's offset is its
   position (0,1,2,... without gaps or repeats) and no line exceeds the limit; the invariant
   holds initially for any well-formed file and idle writers with admissible messages *)
Theorem C16_concurrent_offsets_are_positions :
  forall limit wd sched, Inv limit wd -> Inv limit (run_sched expected_send limit wd sched).
Proof.
  intros limit wd sched. revert wd. induction sched as [|i r IH]; intros wd H; [exact H|].
  apply IH, sched_step_inv, H.
Qed.
Print Assumptions C16_concurrent_offsets_are_positions.

Theorem C16_initial_world :
  forall limit f todo, positions_ok f -> lines_ok limit f -> Forall (Forall (fun m => snd m <= limit)) todo ->
  Inv limit {| file := f; lock := None;
               writers := map (fun t => {| w_pc := []; w_todo := t; w_cur := None; w_off := 0 |}) todo |}.
Proof.
  intros limit f todo Hp Hl Ht. apply Inv_writers. cbn [file lock writers].
  split; [exact Hp|]. split; [exact Hl|]. split; [|discriminate].
  intros j w Hn. apply nth_error_In, in_map_iff in Hn as (t & <- & Hin). split; [|left; reflexivity].
  split; [exact (proj1 (Forall_forall _ _) Ht t Hin)|]. split; [exact I|]. intros []. reflexivity.
Qed.

(* previously written entries never change, whatever the step list and schedule *)
Theorem C16_append_only :
  forall prog limit wd sched, exists tail, file (run_sched prog limit wd sched) = file wd ++ tail.
Proof.
  intros prog limit wd sched. revert wd. induction sched as [|i r IH]; intros wd.
  - exists []. symmetry. apply app_nil_r.
  - destruct (sched_step_prefix prog limit wd i) as [t1 H1], (IH (sched_step prog limit wd i)) as [t2 H2].
    exists (t1 ++ t2). rewrite app_assoc, <- H1. exact H2.
Qed.
Print Assumptions C16_append_only.

(* sequential sends: offsets are positions, the sent messages appear exactly once and in order *)
Theorem C16_sequential :
  forall limit ms f, positions_ok f -> lines_ok limit f -> Forall (fun m => snd m <= limit) ms ->
  let f' := fold_left (send_seq limit) ms f in
  positions_ok f' /\ lines_ok limit f' /\ map e_tag f' = map e_tag f ++ map (fun m => fst (fst m)) ms /\
  exists tail, f' = f ++ tail.
Proof. exact sends_seq_ok. Qed.

(* reading from offset k: exactly the entries from position k on, minus the ignored ones *)
Theorem C16_read_from_k :
  forall limit f k ign_ids ign_offs, lines_ok limit f -> 0 <= k ->
  get_messages limit f k ign_ids ign_offs =
    Some (filter (fun e => negb (existsb (N.eqb (e_id e)) ign_ids) && negb (existsb (Z.eqb (e_offset e)) ign_offs))
                 (skipn (Z.to_nat k) f)).
Proof. exact read_from_k. Qed.
Print Assumptions C16_read_from_k.

(* an ARBITRARY board file: anybody who can write to it may append a line that does not decode
   or that claims any offset (the reader of the repaired tree: fixes 296c60b, 17fbb2c) *)

(* every entry handed out carries the POSITION of the line it was decoded from, at or after the
   requested offset; tag and id are that line's; it is not on an ignore list *)
Theorem C16_raw_offsets_are_positions :
  forall pos k ids offs l e, In e (read_from pos k ids offs l) ->
  exists i x, nth_error l i = Some (LEntry x) /\ e_offset e = pos + Z.of_nat i /\ k <= e_offset e /\
              e_tag e = e_tag x /\ e_id e = e_id x /\
              existsb (N.eqb (e_id x)) ids = false /\ existsb (Z.eqb (e_offset e)) offs = false.
Proof. exact read_from_sound. Qed.
Print Assumptions C16_raw_offsets_are_positions.

(* every decodable line at or after the requested offset that is not ignored IS handed out: a line
   that does not decode hides nothing but itself *)
Theorem C16_raw_nothing_hidden :
  forall pos k ids offs l i x,
  nth_error l i = Some (LEntry x) -> k <= pos + Z.of_nat i ->
  existsb (N.eqb (e_id x)) ids = false -> existsb (Z.eqb (pos + Z.of_nat i)) offs = false ->
  In {| e_tag := e_tag x; e_offset := pos + Z.of_nat i; e_id := e_id x; e_len := e_len x |} (read_from pos k ids offs l).
Proof. exact read_from_complete. Qed.

(* the offsets handed out are strictly increasing: totally ordered, no repeats *)
Theorem C16_raw_totally_ordered :
  forall pos k ids offs l, StronglySorted (fun a b => e_offset a < e_offset b) (read_from pos k ids offs l).
Proof. exact read_from_increasing. Qed.

(* resuming at k gives exactly what a reader from the start was given at offsets >= k: a poller that
   resumes at (the last offset it was given) + 1 misses nothing and sees nothing twice *)
Theorem C16_raw_resume :
  forall pos k ids offs l,
  read_from pos k ids offs l = filter (fun e => k <=? e_offset e) (read_from pos pos ids offs l).
Proof. intros. apply read_from_filter. reflexivity. Qed.
Print Assumptions C16_raw_resume.

(* on a file that only `send` has written the two readers are one *)
Theorem C16_raw_reader_on_sent_file :
  forall limit f k ids offs, positions_ok f -> lines_ok limit f -> 0 <= k ->
  get_messages_raw limit (map LEntry f) k ids offs = get_messages limit f k ids offs.
Proof.
  intros limit f k ids offs Hp Hl _. unfold get_messages_raw, get_messages.
  rewrite scan_lines_entries, scan_all, read_from_entries, Z.sub_0_r by assumption. reflexivity.
Qed.
