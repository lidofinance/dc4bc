(* C13 — a hot node killed at any instant resumes without losing messages or operations. *)
From Coq Require Import List ZArith.
Require Import Fsm.Actions Node.Types Node.Process Node.Crash Node.CrashReplay Node.CrashResult.
Require Node.Local.
Require Board.File Gen.Skeletons.
Import ListNotations.

(* the handler of a board message puts the operation into the pool BEFORE it saves the round, and the
   round save is its last durable write (known_findings C13-fixed-5627d52:
   the round used to be saved first, and a node killed between the two writes came back with a round
   that had moved on and no operation for it). *)

(* 1. killed strictly inside the handler - or anywhere in a handler that refuses the message - the
   node comes back with every stored round as it was *)
Theorem C13_killed_inside_keeps_rounds :
  forall now st m k hc u,
  let r := process_board_message now {| h_st := st; h_tr := [] |} m in
  (k < count_durable (trace_of r) \/ (exists h, r = RErr h)) ->
  crash_after st k r = ROk hc u ->
  ns_rounds (h_st hc) = ns_rounds st.
Proof.
  intros now st m k hc u r Hk H. eapply crash_before_round_write_keeps_rounds; [|exact H].
  apply killed_inside_trace; [reflexivity| |exact Hk]. intros b st' p _. destruct p; reflexivity.
Qed.
Print Assumptions C13_killed_inside_keeps_rounds.

(* 2. ... and the redelivered message is handled - at whatever later time - exactly as the node that
   was never killed would handle it: same verdict, same operation, same new state of the round.
   (Messages that also write the signature store - batch proposals, reconstructed signatures - are
   covered by the crash cases of the correspondence runs, not by this theorem.) *)
Theorem C13_killed_inside_then_redelivered :
  forall put now now' st m k hc u,
  ns_skip st = false ->
  m_event m <> ev_sgn_start -> m_event m <> ev_sig_reconstructed ->
  let r := process_board_message now {| h_st := st; h_tr := [] |} m in
  k < count_durable (trace_of r) ->
  crash_after st k r = ROk hc u ->
  Node.Local.rrel (m_round m) (process_message put now' {| h_st := h_st hc; h_tr := [] |} m)
                              (process_message put now' {| h_st := st; h_tr := [] |} m).
Proof. exact killed_inside_then_redelivered. Qed.
Print Assumptions C13_killed_inside_then_redelivered.

(* 3. when the handler returns, the operation of the accepted message is in the pool (unless the very
   same operation has been handled and retired before) *)
Theorem C13_accepted_operation_is_pooled :
  forall now h0 m h o,
  process_message true now h0 m = ROk h (Some o) ->
  existsb (op_same_id o) (ns_deleted (h_st h)) = false ->
  existsb (op_same_id o) (ops_visible (h_st h)) = true.
Proof. exact accepted_operation_is_pooled. Qed.
Print Assumptions C13_accepted_operation_is_pooled.

(* the hypotheses are met: the opening proposal issues two durable writes, pool then rounds *)
Theorem C13_killed_inside_example :
  let st0 := empty_node 2%N 3%N in
  ns_skip st0 = false /\ m_event w_proposal <> ev_sgn_start /\ m_event w_proposal <> ev_sig_reconstructed /\
  count_durable (trace_of (process_board_message 777 {| h_st := st0; h_tr := [] |} w_proposal)) = 2%nat.
Proof. exact killed_inside_example. Qed.

(* the witness of the former finding (the opening proposal, killed after k = 0, 1, 2 durable writes,
   restarted, the proposal delivered again) now ends in the very state of the run never killed *)
Theorem C13_former_witness_resumes :
  let st0 := empty_node 2%N 3%N in
  pending (final_state st0 [InMsg w_proposal]) = 1%nat /\
  final_state st0 [InCrashMsg 0 w_proposal; InMsg w_proposal] = final_state st0 [InMsg w_proposal] /\
  final_state st0 [InCrashMsg 1 w_proposal; InMsg w_proposal] = final_state st0 [InMsg w_proposal] /\
  final_state st0 [InCrashMsg 2 w_proposal; InMsg w_proposal] = final_state st0 [InMsg w_proposal].
Proof. vm_compute. repeat split. Qed.
Print Assumptions C13_former_witness_resumes.

(* kept from before the repair: a crash before the handler's first write to the round map leaves
   every round as it was *)
Theorem C13_crash_before_round_write_partial :
  forall (A : Type) st k (r : res A) h u,
  forallb (fun w => negb (writes_rounds w)) (take_durable k (trace_of r)) = true ->
  crash_after st k r = ROk h u -> ns_rounds (h_st h) = ns_rounds st.
Proof. exact @crash_before_round_write_keeps_rounds. Qed.
Print Assumptions C13_crash_before_round_write_partial.

(* 4. killed inside the handling of an operation result (the answer's messages are posted one by one,
   then the operation is retired): wherever the process dies, the operation is exactly as pending as it
   was - the same answer will be accepted again - or every message of the answer is on the board.  An
   answer is never lost; at worst a prefix of it is posted twice *)
Theorem C13_killed_inside_result_handling :
  forall st x h k hc u,
  execute_operation {| h_st := st; h_tr := [] |} x = ROk h tt -> ox_event x <> ev_processed ->
  crash_after st k (execute_operation {| h_st := st; h_tr := [] |} x) = ROk hc u ->
  (ns_ops (h_st hc) = ns_ops st /\ ns_deleted (h_st hc) = ns_deleted st) \/
  ns_board (h_st hc) = ns_board st ++ map (out_of (ns_user st)) (ox_msgs x).
Proof. exact killed_inside_execute. Qed.
Print Assumptions C13_killed_inside_result_handling.

(* a clean stop/start changes nothing durable (operations, tombstones, rounds, signatures, board) *)
Theorem C13_restart_keeps_durable_state :
  forall now st h u, node_step now st InRestart = ROk h u ->
  ns_rounds (h_st h) = ns_rounds st /\ ns_ops (h_st h) = ns_ops st /\ ns_deleted (h_st h) = ns_deleted st /\
  ns_sigs (h_st h) = ns_sigs st /\ ns_board (h_st h) = ns_board st.
Proof. intros now st h u H. inversion H; subst. auto. Qed.

(* effect orders regenerated from the source: Poll handles a message before saving the offset past
   it (a crash while handling leaves the saved offset at or before the message: it is fetched
   again); executeOperation sends the result's messages before retiring the operation *)
Theorem C13_poll_saves_offset_after_handling :
  forall saved o, (saved <= o)%Z ->
  match index_of_process Gen.Skeletons.poll_steps 0 with
  | Some i => (offset_after (firstn i Gen.Skeletons.poll_steps) saved o <= o)%Z
  | None => False
  end.
Proof.
  (* no PSaveOffset stands before PProcess in the regenerated steps: the goal reduces to `saved <= o` *)
  intros saved o H. exact H.
Qed.
Theorem C13_execute_sends_before_retiring :
  Gen.Skeletons.execute_steps = [Board.File.XLookup; Board.File.XSend; Board.File.XSaveFSM; Board.File.XDelete].
Proof. reflexivity. Qed.
