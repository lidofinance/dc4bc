(* C10 — a participant's contribution can only come from that participant. *)
From Coq Require Import String List.
Require Import Fsm.Actions Node.Types Node.Process Node.Facts.
Import ListNotations.

(* partial statement (the part that holds after the repair of the impersonation defect):
   whenever the node accepts a board message that reaches the round FSM and names a participant,
   the message's signature verified under the key registered for its sender AND the participant
   named in the request is the one registered for that sender.
   Not covered (open finding, refutation witnesses are replayed by the harness): the signature
   covers the payload only, so a genuine message can be re-posted under another round identifier
   or another event name of the same request shape. *)
Theorem C10_accepted_contribution_is_authentic_partial :
  forall put now st m req pid h o,
  ns_skip st = false ->
  m_event m <> ev_sig_init -> m_event m <> ev_sig_reconstructed -> m_event m <> ev_sig_recon_failed ->
  m_req m = MFsm req -> req_pid req = Some pid ->
  process_message put now {| h_st := st; h_tr := [] |} m = ROk h (Some o) ->
  (exists p, round_payload st (m_round m) p /\ valid_sig p m) /\
  (exists p', registered_as p' (m_sender m) pid).
Proof. intros put now st m req pid h o Hskip He1 _ _. exact (accepted_contribution_is_authentic put now st m req pid h o Hskip He1). Qed.
Print Assumptions C10_accepted_contribution_is_authentic_partial.

(* the same for EVERY accepted message (whether or not it produces an operation) of a round that is
   in progress - neither cancelled nor timed out: its signature verified under its sender's registered
   key, and the participant it names is the one registered for that sender.  So within a round the
   status and data recorded for participant P change only in response to messages signed with P's
   own key. *)
Require Import Node.Authentic.
Theorem C10_accepted_message_is_authentic :
  forall put now st m req pid h x,
  ns_skip st = false ->
  m_event m <> ev_sig_init -> m_event m <> ev_sig_reconstructed -> m_event m <> ev_sig_recon_failed ->
  m_req m = MFsm req -> req_pid req = Some pid ->
  in_progress st (m_round m) ->
  process_message put now {| h_st := st; h_tr := [] |} m = ROk h x ->
  (exists p, round_payload st (m_round m) p /\ valid_sig p m) /\
  (exists p', registered_as p' (m_sender m) pid).
Proof.
  intros put now st m req pid h x Hskip He1 He2 He3 Hreq Hpid Hprog H.
  destruct (accepted_message_is_its_senders put now st m req pid h x Hskip He1 He2 He3 Hreq Hpid Hprog H) as (p & Hp & Hs & Hr).
  split; [exists p; split; [exact Hp|exact Hs]|exists p; exact Hr].
Qed.
Print Assumptions C10_accepted_message_is_authentic.

(* the second sentence of the property - "a signed message is effective only for the round and
   protocol step its author produced it for" - is FALSE of the code (open findings
   C10-cross-round-replay, C10-cross-event-replay; the harness replays both on real nodes, where the
   model agrees with the implementation): the signature covers the payload bytes only.  Witnesses
   on a concrete node with two rounds proposed to the same participants: the very bytes and
   signature of a confirmation of round 8 are accepted in round 9 ... *)
Require Import Node.ReplayRefuted.
Theorem C10_effective_only_for_its_round_refuted :
  exists st m m', same_signed_bytes m m' /\ m_round m <> m_round m' /\ m_event m = m_event m' /\
                  accepted st m /\ accepted st m'.
Proof. exact effective_only_for_its_round_refuted. Qed.
Print Assumptions C10_effective_only_for_its_round_refuted.

(* ... and, under another event name of the same request shape, in round 8 itself ... *)
Theorem C10_effective_only_for_its_step_refuted :
  exists st m m', same_signed_bytes m m' /\ m_event m <> m_event m' /\ m_round m = m_round m' /\
                  accepted st m /\ accepted st m'.
Proof. exact effective_only_for_its_step_refuted. Qed.
Print Assumptions C10_effective_only_for_its_step_refuted.

(* ... where it cancels, in its author's name, the round the author agreed to *)
Theorem C10_replayed_confirmation_cancels_the_round :
  same_signed_bytes genuine replayed_event /\ m_event genuine <> m_event replayed_event /\
  m_round genuine = m_round replayed_event /\
  accepted two_rounds replayed_event /\
  dstate_after two_rounds genuine = Some "state_sig_proposal_await_participants_confirmations"%string /\
  dstate_after two_rounds replayed_event = Some "state_sig_proposal_canceled_by_participant"%string.
Proof. exact cross_event_replay_accepted. Qed.
