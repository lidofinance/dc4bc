(* C01 — reconstructed threshold signatures verify under the group key and agree. *)
Set Warnings "-notation-overridden,-ambiguous-paths".
From mathcomp Require Import ssreflect ssrfun ssrbool eqtype ssrnat seq choice fintype bigop ssralg poly.
Set Warnings "notation-overridden,ambiguous-paths".
Require Import Crypto.Lagrange Crypto.Pedersen.
Set Implicit Arguments. Unset Strict Implicit. Unset Printing Implicit Defensive.
Import GRing.Theory.
Local Open Scope ring_scope.

(* over any field F (the scalar field) and any F-module W (the signature group): for a polynomial
   p of size <= t, ANY duplicate-free list of t or more abscissae combines the partial signatures
   p(x) *: h with the weights kyber's RecoverCommit computes to p(0) *: h - the signature of the
   same message under the group key p(0) *: g *)
Theorem C01_recover_valid (F : fieldType) (W : lmodType F) (h : W) (xs : seq F) (p : {poly F}) :
  uniq xs -> (size p <= size xs)%N ->
  \sum_(x <- xs) w0 xs x *: (p.[x] *: h) = p.[0] *: h.
Proof. exact: lagrange0_lmod. Qed.
Print Assumptions C01_recover_valid.

(* hence all subsets and all orders agree: the identical group element, hence the identical 96 bytes *)
Theorem C01_recover_agree (F : fieldType) (xs ys : seq F) (p : {poly F}) :
  uniq xs -> uniq ys -> (size p <= size xs)%N -> (size p <= size ys)%N ->
  \sum_(x <- xs) w0 xs x * p.[x] = \sum_(y <- ys) w0 ys y * p.[y].
Proof. exact: lagrange0_agree. Qed.
Print Assumptions C01_recover_agree.

(* with the shares produced by the key generation (sum of the dealers' deals): any t of them sign
   under the joint key *)
Theorem C01_shares_of_the_ceremony_sign (F : fieldType) (J : finType) (f : J -> {poly F}) (t : nat)
        (W : lmodType F) (h : W) (xs : seq F) :
  (forall j, (size (f j) <= t)%N) -> uniq xs -> (t <= size xs)%N ->
  \sum_(x <- xs) w0 xs x *: (share f x *: h) = (joint f).[0] *: h.
Proof. move=> sf ux st; exact: (t_shares_sign sf h ux st). Qed.
Print Assumptions C01_shares_of_the_ceremony_sign.
