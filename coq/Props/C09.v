(* C09 — no state change without a valid signature by the claimed sender's registered key. *)
From Coq Require Import List ZArith.
Require Import Fsm.Types Fsm.Actions Fsm.Provider Node.Types Node.Process Node.Facts.
Require Node.Walk.
Import ListNotations.

(* for every node state, clock value and board message other than the opening proposal
   (reinitialisation is a separate input): if the signature is not the signature of the key
   registered in that round for the named sender over exactly the message's data — unknown
   sender, altered payload, altered/missing signature, any other key — the message is refused and
   the trace of writes is empty: every round, the operation pool, the signature store and the
   board are exactly as they were *)
Theorem C09_unsigned_message_refused :
  forall now st m,
  ns_skip st = false -> m_event m <> ev_sig_init ->
  (forall p, round_payload st (m_round m) p -> ~ valid_sig p m) ->
  untouched st (node_step now st (InMsg m)).
Proof.
  intros now st m Hskip Hev Hbad. unfold node_step, process_board_message.
  rewrite Node.Walk.process_message_plan. unfold Node.Walk.pm_plan. cbn [h_st].
  (* past the head the signature has verified under the payload of the round that was loaded *)
  destruct (Node.Walk.pm_headP now st m) as [| |inst0 El Hv]; [reflexivity|exact I|]. exfalso.
  destruct (verified_under_loaded st m inst0 Hskip Hev El Hv) as [Hp Hs]. exact (Hbad _ Hp Hs).
Qed.
Print Assumptions C09_unsigned_message_refused.

(* a round nobody opened has no registered keys: nothing but a proposal can be valid for it *)
Theorem C09_unknown_round_has_no_keys :
  forall m i, create = LoadOk i -> ~ valid_sig (i_payload i) m.
Proof. intros m i. rewrite Node.Walk.create_created. intros H (_ & pk & Hk & _). inversion H; subst i. discriminate. Qed.
Print Assumptions C09_unknown_round_has_no_keys.

(* the deviations the property names, each for every node state, clock value and message other
   than the opening proposal (corollaries of the theorem above; the concrete node of the example is
   in Node/Deviations.v): a missing or garbled signature ... *)
Require Import Node.Deviations.
Theorem C09_missing_signature_refused :
  forall now st m, ns_skip st = false -> m_event m <> ev_sig_init ->
  (m_sig m = SigNone \/ m_sig m = SigJunk) -> untouched st (node_step now st (InMsg m)).
Proof.
  intros now st m Hs He Hm. apply C09_unsigned_message_refused; [exact Hs|exact He|].
  intros p _ (_ & pk & _ & Hsig). destruct Hm as [Hm|Hm]; rewrite Hm in Hsig; discriminate.
Qed.

(* ... an altered payload under a genuine signature ... *)
Theorem C09_altered_payload_refused :
  forall now st m k d, ns_skip st = false -> m_event m <> ev_sig_init ->
  m_sig m = SigBy k d -> d <> m_data m -> untouched st (node_step now st (InMsg m)).
Proof.
  intros now st m k d Hs He Hm Hd. apply C09_unsigned_message_refused; [exact Hs|exact He|].
  intros p _ (_ & pk & _ & Hsig). rewrite Hm in Hsig. inversion Hsig. contradiction.
Qed.

(* ... a signature made with any key other than the one registered in that round for the sender ... *)
Theorem C09_other_key_refused :
  forall now st m k d, ns_skip st = false -> m_event m <> ev_sig_init ->
  m_sig m = SigBy k d ->
  (forall p, round_payload st (m_round m) p -> tget (p_pubkeys p) (m_sender m) <> Some k) ->
  untouched st (node_step now st (InMsg m)).
Proof.
  intros now st m k d Hs He Hm Hk. apply C09_unsigned_message_refused; [exact Hs|exact He|].
  intros p Hp (_ & pk & Hreg & Hsig). rewrite Hm in Hsig. inversion Hsig; subst. exact (Hk p Hp Hreg).
Qed.

(* ... an unknown or blank sender *)
Theorem C09_unknown_sender_refused :
  forall now st m, ns_skip st = false -> m_event m <> ev_sig_init ->
  (forall p, round_payload st (m_round m) p -> tget (p_pubkeys p) (m_sender m) = None) ->
  untouched st (node_step now st (InMsg m)).
Proof.
  intros now st m Hs He Hn. apply C09_unsigned_message_refused; [exact Hs|exact He|].
  intros p Hp (_ & pk & Hreg & _). rewrite (Hn p Hp) in Hreg. discriminate.
Qed.
Theorem C09_blank_sender_refused :
  forall now st m, ns_skip st = false -> m_event m <> ev_sig_init -> m_sender m = 0%N ->
  untouched st (node_step now st (InMsg m)).
Proof.
  intros now st m Hs He Hz. apply C09_unsigned_message_refused; [exact Hs|exact He|].
  intros p _ (Hnz & _). exact (Hnz Hz).
Qed.
Print Assumptions C09_other_key_refused.

(* non-vacuity on a concrete node: the genuine confirmation is accepted and written; each deviation
   of it is refused with the state and the (empty) trace of writes unchanged *)
Example C09_deviations_example :
  (exists h, node_step 777%Z dv_node (InMsg (dv_with 11%N (SigBy 3%N 11%N) 2%N)) = ROk h tt /\ h_tr h <> []) /\
  dv_refused (dv_with 12%N (SigBy 3%N 11%N) 2%N) /\
  dv_refused (dv_with 11%N (SigBy 6%N 11%N) 2%N) /\
  dv_refused (dv_with 11%N SigNone 2%N) /\
  dv_refused (dv_with 11%N SigJunk 2%N) /\
  dv_refused (dv_with 11%N (SigBy 3%N 11%N) 99%N) /\
  dv_refused (dv_with 11%N (SigBy 3%N 11%N) 0%N).
Proof. exact deviations_example. Qed.

(* regenerated from cmd/dc4bc_d on every run: every option key of the daemon is bound to the command-line
   flag of the same name - the switch that turns signature verification off is its own flag, and no other
   flag (e.g. the one that lists offsets to ignore) sets it *)
Require Gen.Skeletons.
Theorem C09_verification_switch_is_its_own_flag : Gen.Skeletons.daemon_flags_bound_to_themselves = true.
Proof. reflexivity. Qed.
