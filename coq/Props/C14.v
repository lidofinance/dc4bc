(* C14 — API requests concurrent with polling behave as if executed one at a time.
   The pinned tree lost a newly created operation in some interleavings (the theorems about the 792
   interleavings below, kept as the record of the defect); the repair runs both handlers under one
   node mutex. *)
From Coq Require Import List Bool Lia.
Require Import Node.Serial Node.SerialProofs Node.SerialLock Node.SerialLockProofs Node.ResetPoll
  Node.ResetPollProofs.
Require Gen.Skeletons.
Import ListNotations.

(* regenerated from the source: both handlers lock first and unlock on return *)
Theorem C14_handlers_take_the_lock :
  Gen.Skeletons.process_message_locked && Gen.Skeletons.execute_operation_locked = true.
Proof. reflexivity. Qed.
(* with that mutex, for EVERY schedule of the two threads - of any length, with any number of attempts
   to move a thread that is waiting for the lock - the two handlers are never inside their sections
   together, and once both have finished the newly created operation is pending and the answered one
   is not *)
Theorem C14_locked_handlers_serialisable :
  forall sched, let s := lkrun sched in
  ~ (l_apc s = 1 /\ l_bpc s = 1) /\ (l_apc s = 2 -> l_bpc s = 2 -> pending_of s = [2]).
Proof. intros sched. exact (reachable_serialisable _ (every_schedule_stays_reachable sched)). Qed.
Print Assumptions C14_locked_handlers_serialisable.

(* without the mutex (the pinned tree; defect repaired by the commit recorded in known_findings) *)

(* finite, complete enumeration (bound stated): one operation result (7 store calls) against one
   PutOperation of the poller (5 store calls) - all 792 interleavings.  The outcome equals both
   sequential orders unless the poller's pool write falls between the request's last read of
   `operations` and its write: then the newly created operation is lost (known_findings C14-fixed-df91291).  A retired
   operation is never offered again in any interleaving. *)
Theorem C14_interleaving_outcome_partial :
  forall sc, In sc (interleavings 7 5) ->
  (in_lost_window sc = false -> pending_after sc = [2]) /\
  (in_lost_window sc = true -> pending_after sc = []).
Proof.
  intros sc Hin. rewrite (proj1 map_ext_in_iff (proj1 all_interleavings_decided) sc Hin).
  split; intros ->; reflexivity.
Qed.
Print Assumptions C14_interleaving_outcome_partial.

Theorem C14_serialisable_refuted :
  exists sc, In sc (interleavings 7 5) /\ pending_after sc <> [2].
Proof.
  exists [true; true; true; true; true; true; false; false; false; false; false; true]. split.
  - (* the sixth schedule of the enumeration *) apply (nth_error_In _ 5). reflexivity.
  - vm_compute. discriminate.
Qed.

Theorem C14_sequential_orders :
  pending_after (repeat true 7 ++ repeat false 5) = [2] /\ pending_after (repeat false 5 ++ repeat true 7) = [2].
Proof. vm_compute. split; reflexivity. Qed.

(* a state reset (POST /resetState) against the poller: OPEN FINDING, nothing serialises the two
   (Node/ResetPoll.v: the poller's tick as LoadOffset+GetMessages, then ProcessMessage / SaveOffset per
   message, every call going to the current database; the reset swaps a fresh database in) *)

(* the full statement is refuted for ANY board: the node has handled k >= 1 messages, at least one
   more is on the board, the request is served after the poller has fetched its tick's messages -
   however long the poller goes on afterwards, the fresh state is never given position 0 of the board
   (neither sequential order: both give it the whole board) *)
Theorem C14_reset_inside_a_tick_refuted :
  forall n k sched, 1 <= k -> k < n ->
  let w := run n ([false; true] ++ sched) (start k) in
  ~ In 0 (d_del (w_new w)) /\ w_swapped w = true.
Proof.
  intros n k sched Hk Hn. apply (reset_while_not_idle_loses_the_board n k 1 sched Hk).
  (* after one step of the poller something was fetched *)
  unfold idle_at. change (w_pc (run n (repeat false 1) (start k))) with (next_of (from n k)).
  unfold from. replace (n - k) with (S (n - k - 1)) by lia. reflexivity.
Qed.
Print Assumptions C14_reset_inside_a_tick_refuted.

(* partial: boards of up to 6 messages, every k, EVERY instant of the request (154 cases, decided by
   computation): the outcome is the sequential one - the fresh state is given the whole board, in
   order, and ends at offset n - exactly when the request is served between two ticks *)
Theorem C14_reset_serialisable_iff_between_ticks_partial :
  forall n k p, n <= 6 -> 1 <= k <= n -> p < 2 * (n - k) + 4 ->
  replayed_all n (reset_after n k p (4 * n + 8)) = idle_at n k p.
Proof. exact reset_serialisable_iff_idle. Qed.

Theorem C14_reset_sequential_orders :
  forall n k, n <= 6 -> 1 <= k <= n ->
  replayed_all n (reset_after n k 0 (4 * n + 8)) = true /\
  replayed_all n (reset_after n k (2 * (n - k) + 1) (4 * n + 8)) = true.
Proof.
  intros n k Hn Hk. rewrite !reset_serialisable_iff_idle by lia. split; [reflexivity|apply idle_after_the_tick].
Qed.
