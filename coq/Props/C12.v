(* C12 — an airgapped machine restarted mid-ceremony and replayed continues identically. *)
From Coq Require Import List.
Require Import Lib.ListFacts Air.Machine Air.MachineProofs.
Import ListNotations.

Section C12.
Variables (seed op vstate out : Type).
Variable v0 : vstate.
Variable handle : seed -> vstate -> op -> vstate * out.   (* any deterministic handlers *)
Variable is_signing : op -> bool.
Hypothesis signing_pure : forall s v o, is_signing o = true -> fst (handle s v o) = v.

(* for every operation sequence (hence every restart point between steps): stop, reopen, replay
   gives back the volatile state, the log and the seed of the machine that never stopped *)
Theorem C12_replay_restores :
  forall s ops,
  let m := fst (feed seed op vstate out handle is_signing true (fresh seed op vstate v0 s) ops) in
  let m' := fst (replay seed op vstate out handle is_signing (restart seed op vstate v0 m)) in
  m_vol _ _ _ m' = m_vol _ _ _ m /\ m_log _ _ _ m' = m_log _ _ _ m /\ m_seed _ _ _ m' = m_seed _ _ _ m.
Proof. exact (replay_restores seed op vstate out v0 handle is_signing signing_pure). Qed.

(* and every later operation is answered identically, with identical resulting state and log -
   by induction this covers any number of restarts *)
Theorem C12_continue_after_restart :
  forall s ops later,
  let m := fst (feed seed op vstate out handle is_signing true (fresh seed op vstate v0 s) ops) in
  let m' := fst (replay seed op vstate out handle is_signing (restart seed op vstate v0 m)) in
  snd (feed seed op vstate out handle is_signing true m' later) = snd (feed seed op vstate out handle is_signing true m later) /\
  m_vol _ _ _ (fst (feed seed op vstate out handle is_signing true m' later)) = m_vol _ _ _ (fst (feed seed op vstate out handle is_signing true m later)) /\
  m_log _ _ _ (fst (feed seed op vstate out handle is_signing true m' later)) = m_log _ _ _ (fst (feed seed op vstate out handle is_signing true m later)).
Proof.
  intros s ops later. cbn zeta.
  rewrite (replay_restart seed op vstate out v0 handle is_signing signing_pure). auto.
Qed.

(* the replay republishes exactly the outputs of the logged operations *)
Theorem C12_replay_outputs :
  forall s ops, (forall o, In o ops -> is_signing o = false) ->
  let m := fst (feed seed op vstate out handle is_signing true (fresh seed op vstate v0 s) ops) in
  snd (replay seed op vstate out handle is_signing (restart seed op vstate v0 m)) =
  snd (feed seed op vstate out handle is_signing true (fresh seed op vstate v0 s) ops).
Proof.
  intros s ops Hns. cbn zeta. unfold replay. rewrite !feed_eq.
  cbn [fst snd m_seed m_log m_vol restart fresh app].
  rewrite filter_all; [reflexivity|]. intros o Ho. rewrite (Hns o Ho). reflexivity.
Qed.
End C12.
Print Assumptions C12_replay_restores.
Print Assumptions C12_continue_after_restart.

(* "two machines created from the same mnemonic derive identical long-term keys": the key pair is a
   function of the seed only if the set_seed command of cmd/airgapped DERIVES it from the seed it
   has just set (GenerateKeys) and does not reload a pair the database already holds (InitKeys /
   LoadKeysFromDB) - regenerated from the source of the command on every run *)
Require Gen.Skeletons Board.File.
Theorem C12_set_seed_derives_the_keys :
  Gen.Skeletons.set_seed_steps = [Board.File.KSetSeed; Board.File.KGenerate].
Proof. reflexivity. Qed.
