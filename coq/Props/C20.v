(* C20 — reinitialising from a log dump reproduces key material and state.
   Hash part: theorems below over the Gallina model of CalcStartReInitDKGMessageHash (compared with
   the implementation on every run).  State part: the node model's reinit_dkg (compared with the real
   reinitDKG on every run) ignores embedded messages of other rounds; the recovery of the share by
   the airgapped machine rests on the log/replay theorems of C12 and is run on real machines.  Then
   the two tools around the reinit file: the generator (Node/GenReDKG.v) and the 0.1.4 adaptation
   (Node/Adapt.v). *)
From Coq Require Import String List ZArith.
Require Import Fsm.Actions Node.Types Node.Process Node.ReinitHash Node.ReinitHashProofs Node.ReinitProofs.
Import ListNotations.

(* identical on every node for the same file *)
Theorem C20_same_file_same_hash : forall f g, f = g -> reinit_hash f = reinit_hash g.
Proof. exact same_file_same_hash. Qed.
Print Assumptions C20_same_file_same_hash.

(* the property's quantifier - every single-field edit of a reinit file: the id, the threshold, a
   participant's name, new / old communication key or DKG key, a contained message's payload,
   signature, recipient, event, sender, round id or offset - changes the hashed byte string.
   (partial only in that SHA-1 itself cannot be proved injective; it is run by the harness on every
   such edit of real files) *)
Theorem C20_single_field_edit_changes_hash_input :
  forall f g, file_edit f g -> hash_input f <> hash_input g.
Proof. exact single_field_edit_changes_hash_input. Qed.
Print Assumptions C20_single_field_edit_changes_hash_input.

(* several fields at once: among files of the same shape (all fields of equal lengths, numbers
   compared as printed) equal pre-images force equal fields; a different hash follows only if SHA-1
   does not collide on these inputs, which is not proved *)
Theorem C20_same_shape_sensitive :
  forall f g, map (@length N) (fields f) = map (@length N) (fields g) ->
  hash_input f = hash_input g -> fields f = fields g.
Proof. intros f g. apply concat_inj_lengths. Qed.
Print Assumptions C20_same_shape_sensitive.

(* beyond the quantifier (two fields edited at once with different lengths) the statement is
   refuted: no separators (id "ab", threshold 12  vs  id "ab1", threshold 2) *)
Theorem C20_multi_field_sensitivity_refuted :
  amb1 <> amb2 /\ hash_input amb1 = hash_input amb2 /\ reinit_hash amb1 = reinit_hash amb2.
Proof.
  split; [discriminate|].
  assert (E : hash_input amb1 = hash_input amb2) by (vm_compute; reflexivity).
  split; [exact E|]. unfold reinit_hash. rewrite E. reflexivity.
Qed.
Print Assumptions C20_multi_field_sensitivity_refuted.

(* junk / other rounds' traffic inside the dump - a signing batch of another key included (since fix
   "a signing batch of another round does not end the replay"; before it the statement had to
   exclude signing starts) - has no influence on the reinitialisation *)
Theorem C20_reinit_ignores_foreign_rounds :
  forall now h rd l m r,
  N.eqb (m_round m) (rd_id rd) = false ->
  reinit_dkg now h (Some (with_msgs rd (l ++ m :: r))) = reinit_dkg now h (Some (with_msgs rd (l ++ r))).
Proof.
  intros now h rd l m r Hr. apply reinit_ignores_skipped. intros me. unfold skipped. rewrite Hr. reflexivity.
Qed.
Print Assumptions C20_reinit_ignores_foreign_rounds.

(* ... and so has any message of the signing phase, of the restored round too, wherever it stands in
   the file: a batch proposal that every node refused while the key generation was under way does not
   end the replay (fix 34530eb: the replay used to END at the first signing proposal of its round) *)
Theorem C20_reinit_ignores_signing_messages :
  forall now h rd l m r,
  is_signing_event (m_event m) = true ->
  reinit_dkg now h (Some (with_msgs rd (l ++ m :: r))) = reinit_dkg now h (Some (with_msgs rd (l ++ r))).
Proof.
  intros now h rd l m r He. apply reinit_ignores_skipped. intros me. unfold skipped. rewrite He, Bool.orb_true_r. reflexivity.
Qed.
Print Assumptions C20_reinit_ignores_signing_messages.

(* the state part is REFUTED for dumps that contain a message the original nodes refused for its
   signature (known finding reinit-replays-unverified-message): while verification is switched off -
   as it is for the whole replay of a reinitialisation - the signature of a message is never looked
   at, so a forged decline or error report lying on the board is applied at reinitialisation although
   it had no effect on the original ceremony.  (The harness replays the witness on real clusters.) *)
Theorem C20_replay_does_not_verify :
  forall put now st m s, ns_skip st = true ->
  process_message put now {| h_st := st; h_tr := [] |} (with_sig m s) = process_message put now {| h_st := st; h_tr := [] |} m.
Proof. intros put now st m s. exact (unverified_replay put now {| h_st := st; h_tr := [] |} m s). Qed.
Print Assumptions C20_replay_does_not_verify.

(* a concrete witness (Node/RestoreRefuted.v): after the opening proposal of round 9 a decline in
   participant 0's name, signed by nobody, lies on the board; the live nodes refuse it writing
   nothing and keep waiting for confirmations - the node restored from the very same log holds the
   round as cancelled; without the forged message the two agree *)
Require Import Node.RestoreRefuted.
Theorem C20_restore_reaches_live_state_refuted :
  exists log, restored_state log <> round_state (live_of log) 9%N.
Proof.
  exists the_log. destruct restored_round_differs_from_live_round as [A B]. rewrite A, B. discriminate.
Qed.
Print Assumptions C20_restore_reaches_live_state_refuted.

Theorem C20_restore_witness :
  (exists h, (process_message true 777%Z {| h_st := live_of [Node.Local.ex_prop 9%N]; h_tr := [] |} forged_decline = RErr h) /\ (h_tr h = [])) /\
  (round_state (live_of the_log) 9%N = Some "state_sig_proposal_await_participants_confirmations"%string /\
   restored_state the_log = Some "state_sig_proposal_canceled_by_participant"%string) /\
  (restored_state [Node.Local.ex_prop 9%N] = round_state (live_of [Node.Local.ex_prop 9%N]) 9%N /\
   restored_state [Node.Local.ex_prop 9%N] <> None).
Proof.
  exact (conj live_nodes_refuse_the_forged_decline (conj restored_round_differs_from_live_round without_the_forged_message_they_agree)).
Qed.

(* the tool that writes the reinit file (client/types GenerateReDKGMessage, Node/GenReDKG.v) *)
Require Import Node.GenReDKG Node.GenReDKGProofs.

(* a message of the signing phase, wherever it lies in the board log and whoever posted it, leaves the
   file exactly as it is without it (before the repair 34530eb the file ENDED at the first one) *)
Theorem C20_generator_ignores_signing_messages :
  forall l m r, is_signing_event (gm_event m) = true -> gen_redkg (l ++ m :: r) = gen_redkg (l ++ r).
Proof.
  intros l m r H. unfold gen_redkg. rewrite !fold_left_app. cbn [fold_left].
  rewrite (gen_step_signing _ m H). reflexivity.
Qed.
Print Assumptions C20_generator_ignores_signing_messages.

(* the file's messages are the log without the signing phase, in the log's order - nothing else is
   dropped, nothing reordered *)
Theorem C20_generator_keeps_everything_else :
  forall log, gf_msgs (gen_redkg log) = filter (fun m => negb (is_signing_event (gm_event m))) log.
Proof. intros log. apply gen_fold_msgs. Qed.

(* with one opening proposal in the log the file names that proposal's round, threshold, participants *)
Theorem C20_generator_header_of_single_proposal :
  forall l p r, gm_event p = ev_sig_init ->
  (forall m, In m (l ++ r) -> gm_event m <> ev_sig_init) ->
  let f := gen_redkg (l ++ p :: r) in
  gf_id f = gm_round p /\ gf_threshold f = gm_threshold p /\ gf_parts f = gm_parts p.
Proof. exact gen_header_of_single_proposal. Qed.

(* the 0.1.4 adaptation of a reinit file (adapt_dkg.go GetAdaptedReDKG, Node/Adapt.v) *)
Require Import Lib.ListFacts Node.Adapt Node.AdaptProofs.

(* every sender that has a deal message IN THE ROUND BEING RESTORED gets exactly one synthetic
   self-confirmation, every other sender none - whatever deals of other rounds in that sender's name the
   file holds (before the repair 5ae9baa a foreign deal used the sender's self-confirmation up) *)
Theorem C20_adaptation_one_self_confirmation_per_dealer :
  forall id s msgs, (forall m, In m msgs -> am_synthetic m = false) ->
  synthetic_of s (adapt id msgs) = if has_deal id s msgs then 1%nat else 0%nat.
Proof.
  intros id s msgs Hms. apply Forall_forall in Hms. rewrite adapt_eq.
  exact (adapt_from_count id s msgs Hms [] 0%Z).
Qed.
Print Assumptions C20_adaptation_one_self_confirmation_per_dealer.

(* a synthetic message is a deal of the restored round from its sender to itself *)
Theorem C20_adaptation_synthetic_messages_belong_to_the_round :
  forall id msgs x, (forall m, In m msgs -> am_synthetic m = false) ->
  In x (adapt id msgs) -> am_synthetic x = true ->
  am_round x = id /\ am_event x = ev_deal /\ am_recipient x = am_sender x.
Proof.
  intros id msgs x Hms Hin Hx. apply Forall_forall in Hms. rewrite adapt_eq in Hin.
  exact (adapt_from_synthetic id x msgs Hms Hx _ _ Hin).
Qed.

(* the file's own messages are all kept, in order (only their offsets change), and the offsets of the
   adapted file are its positions *)
Theorem C20_adaptation_keeps_the_file :
  forall id msgs, (forall m, In m msgs -> am_synthetic m = false) ->
  map forget_offset (filter (fun m => negb (am_synthetic m)) (adapt id msgs)) = map forget_offset msgs.
Proof.
  intros id msgs Hms. rewrite adapt_eq, adapt_from_originals, filter_all; [reflexivity|].
  intros m Hm. rewrite (Hms m Hm). reflexivity.
Qed.
Theorem C20_adaptation_offsets_are_positions :
  forall id msgs, offsets_are_positions (adapt id msgs).
Proof. intros id msgs i m H. rewrite adapt_eq in H. exact (adapt_from_offsets _ _ _ _ _ _ H). Qed.
