(* C07 — every batch signed by t honest participants is reconstructed on every node.
   Liveness is stated as safety at quiescence: nodes are deterministic consumers of one append-only
   board (C07_quiescent_nodes_hold_the_fold), so "whatever the delivery order" is "whatever the
   order of the board"; the theorems on the signing round then quantify over ARBITRARY input lists
   (any events, any requests, any interleaving) in which the honest participants' own messages are
   well-formed answers.  round_step is the function the node drives the round with; it is compared
   with the real FSM, and the node model with real nodes, on every run (system-level runs over all
   orders of two proposals and six answers, n = 3, t = 2). *)
From Coq Require Import String List ZArith.
Require Import Fsm.Types Fsm.Actions Fsm.Provider Fsm.SigningLive Sys.Quiescence.
Require Gen.Tables Fsm.Handover.
Import ListNotations.
Local Open Scope Z_scope.

(* a node that has consumed the whole board - after any schedule of postings and deliveries - holds
   exactly the fold of its step function over the board *)
Theorem C07_quiescent_nodes_hold_the_fold :
  forall (state msg : Type) (step : state -> msg -> state) (init : list state) (sched : list (action msg)),
  Forall2 (fun s0 n => snd n = length (board _ _ (run _ _ step init sched)) ->
                       fst n = fold_left step (board _ _ (run _ _ step init sched)) s0)
          init (nodes _ _ (run _ _ step init sched)).
Proof. exact quiescent_nodes_hold_the_fold. Qed.
Print Assumptions C07_quiescent_nodes_hold_the_fold.

(* a proposal accepted in idle, then ANY list of inputs: if a set H of at least t participants is
   honest (nothing speaks for them except well-formed answers to this batch; their late answers AND
   late failure reports to other batches, the other participants' failures, duplicates, further
   proposals, junk may all be interleaved) and each of them answers, the node collects the batch *)
Theorem C07_proposed_batch_collects :
  forall now p d t H batch pid created tasks src (l : list input),
  Ready p d t -> 0 < t -> t <= Z.of_nat (length (dc_quorum d)) ->
  batch <> 0%N -> tasks <> [] -> 0 <= pid -> is_zero_time created = false -> tasks_valid tasks = true ->
  NoDup H -> t <= Z.of_nat (length H) ->
  (forall i, In i H -> (exists a, qget (dc_quorum d) i = Some a) /\
                       exists req, In (ev_sgn_partial, req) l /\ good_req batch i req) ->
  Forall (honest_only batch H) l ->
  In batch (collected now (mkd st_idle p) ((ev_sgn_start, RStart batch pid created tasks src) :: l)).
Proof.
  intros now p d t H batch pid created tasks src l Hr Hpos Hn Hb _.
  exact (proposed_batch_collects now p d t H batch pid created tasks src l Hr Hpos Hn Hb).
Qed.
Print Assumptions C07_proposed_batch_collects.

(* answers of slow participants: refused while another batch is being signed and in idle, so they
   change nothing *)
Theorem C07_stale_answer_refused :
  forall now p g b b' pid signs created, Aw p g b -> b' <> b ->
  round_step now (mkd st_await p) ev_sgn_partial (RPartial b' pid signs created) = SRej.
Proof.
  intros now p g b b' pid signs created Haw Hne. apply (foreign_answer_refused now _ p g b _ Haw (or_introl eq_refl)).
  intros pid0 part part' [(_ & s0 & c0 & Heq & _)|(He & _)]; [inversion Heq; contradiction|discriminate He].
Qed.
Theorem C07_answer_at_idle_refused :
  forall now p req,
  round_step now (mkd st_idle p) ev_sgn_partial req = SRej /\ round_step now (mkd st_idle p) ev_sgn_error req = SRej.
Proof.
  intros now p req. split; apply (Handover.round_step_unrouted Gen.Tables.signing_table);
    try reflexivity; apply owns_signing; auto.
Qed.
Print Assumptions C07_stale_answer_refused.

(* ... and do not prevent later batches: the collecting answer persists an idle round that can sign
   again (the hypothesis `Ready` of C07_proposed_batch_collects), with the deadline still unarmed *)
Theorem C07_collecting_answer_leaves_ready :
  forall now p g b d t pid signs created part,
  Aw p g b -> Ready p d t ->
  qget (gc_quorum g) pid = Some part -> gp_status part = SgnAwait -> good_req b pid (RPartial b pid signs created) ->
  t <= count_status SgnConfirmed (qset (gc_quorum g) pid (confirm_part part signs created)) ->
  count_status SgnError (qset (gc_quorum g) pid (confirm_part part signs created)) <= Z.of_nat (length (gc_quorum g)) - t ->
  exists p'' entries,
    round_step now (mkd st_await p) ev_sgn_partial (RPartial b pid signs created)
    = SOk (mkd st_idle p'') st_partial_collected (Some (RespSigningProcess b (gc_src g) entries)) /\
    Ready p'' d t.
Proof. exact collecting_answer_leaves_ready. Qed.
Print Assumptions C07_collecting_answer_leaves_ready.

(* the signing deadline is never armed by the code as it is (UpdatedAt of the signing payload is
   never written): established at initialisation, carried by every lemma above *)
Theorem C07_init_not_expired :
  forall ev p created out resp p', TZERO <= created + sgn_deadline ->
  action_sgn_init ev p (RDefault created) = CbOk out resp p' ->
  exists g, p_sgn p' = Some g /\ expired (gc_expires g) (gc_updated g) = false.
Proof.
  intros ev p created out resp p' Hc. unfold action_sgn_init. destruct (is_zero_time created); [discriminate|].
  intros H. inversion H; subst. eexists. split; [reflexivity|]. apply Z.ltb_ge. exact Hc.
Qed.

(* the second sentence of the property for a FAILURE report (repaired by ffa0973: the report now names
   its batch): a report that names a batch other than the one being signed is refused, nothing is
   persisted - so `honest_only` above allows the honest participants' late failure reports for OTHER
   batches to be interleaved, like their late answers *)
Theorem C07_stale_failure_report_refused :
  forall now p g b b' pid e created, Aw p g b -> b' <> 0%N -> b' <> b ->
  round_step now (mkd st_await p) ev_sgn_error (RSigError pid e created b') = SRej.
Proof.
  intros now p g b b' pid e created Haw H0 Hne. apply (foreign_answer_refused now _ p g b _ Haw (or_intror eq_refl)).
  intros pid0 part part' [(He & _)|(_ & e0 & c0 & bb & Heq & Hbb & _)]; [discriminate He|].
  inversion Heq; subst. destruct Hbb; contradiction.
Qed.
Print Assumptions C07_stale_failure_report_refused.

(* what is left of the former finding `late-error-answer-booked-on-current-batch`: a report written by
   an OLDER version names no batch (0 here) and is judged as before - booked on the batch being signed;
   t correct answers to that batch then collect nothing.  The same report naming its batch (40) is
   refused and the batch is collected, as it is without any report *)
Theorem C07_late_failure_report_examples :
  collected 1000 (mkd st_idle ex_ready) [ex_start41; (ev_sgn_error, RSigError 2 (Some 9%N) 96 0%N); ex_good 41%N 2; ex_good 41%N 0] = [] /\
  collected 1000 (mkd st_idle ex_ready) [ex_start41; (ev_sgn_error, RSigError 2 (Some 9%N) 96 40%N); ex_good 41%N 2; ex_good 41%N 0] = [41%N] /\
  collected 1000 (mkd st_idle ex_ready) [ex_start41; ex_good 41%N 2; ex_good 41%N 0] = [41%N].
Proof. exact late_error_answer_blocks_the_batch. Qed.

(* node level: from "collected" to "stored on every node" *)
Require Import Node.Types Node.Process Node.Reconstructed.
Local Open Scope string_scope.
(* the answer that completes the batch: the node reconstructs from exactly the collected
   contributions of the FSM's response, posts ONE `signature_reconstructed` message carrying exactly
   those signatures, restarts the round for the next batch and saves it; a failing reconstruction
   writes nothing *)
Theorem C07_collecting_answer_is_broadcast :
  forall put now m req h inst i1 batch src parts,
  sender_is_participant (i_payload inst) (m_sender m) req = true ->
  String.eqb (m_event m) ev_sgn_start = false ->
  do_live inst (m_event m) req = FOk i1 st_partial_collected (Some (RespSigningProcess batch src parts)) ->
  match reconstruct (h_st h) (m_round m) (i_payload i1) batch src parts with
  | Some sigs =>
      match do_fresh (dump_of i1) ev_sgn_restart (RDefault now) with
      | FOk i4 _ _ => pm_tail put now m req h inst =
                      ROk (save_fsm (emit h (WSend (broadcast_of h m sigs))) (m_round m) (dump_of i4)) None
      | FErr => pm_tail put now m req h inst = RErr (emit h (WSend (broadcast_of h m sigs)))
      | FPanic => pm_tail put now m req h inst = RPanic
      end
  | None => pm_tail put now m req h inst = RErr h
  end.
Proof. exact collecting_answer_is_broadcast. Qed.
(* every node that accepts that broadcast holds each of its signatures afterwards (under the
   sender's name, in the round the message names - no other round's store changes) *)
Theorem C07_broadcast_signatures_are_stored :
  forall put now st m h' o,
  String.eqb (m_event m) ev_sig_reconstructed = true ->
  process_message put now {| h_st := st; h_tr := [] |} m = ROk h' o ->
  exists l, m_req m = MSigs (Some l) /\ l <> [] /\ o = None /\
    (slots_distinct (stamped m l) = true ->
     forall s, In s (stamped m l) -> holds (round_store (h_st h') (m_round m)) s) /\
    (forall r', r' <> m_round m -> tget' (ns_sigs (h_st h')) r' = tget' (ns_sigs st) r').
Proof. exact reconstructed_message_is_stored. Qed.
(* `reconstruct` yields one signature per message id, so for the broadcast a node actually makes the
   side condition above is met: every signature of it is held by every node accepting it *)
Theorem C07_broadcast_of_reconstruction_is_stored :
  forall put now st0 round p batch src parts sigs st m h' o,
  reconstruct st0 round p batch src parts = Some sigs ->
  String.eqb (m_event m) ev_sig_reconstructed = true -> m_req m = MSigs (Some sigs) ->
  process_message put now {| h_st := st; h_tr := [] |} m = ROk h' o ->
  forall s, In s (stamped m sigs) -> holds (round_store (h_st h') (m_round m)) s.
Proof.
  intros put now st0 round p batch src parts sigs st m h' o Hrec Hev Hreq H.
  destruct (reconstructed_message_is_stored put now st m h' o Hev H) as (l & Hl & _ & _ & Hholds & _).
  rewrite Hreq in Hl. inversion Hl; subst l.
  apply Hholds, stamped_slots_distinct, (reconstruct_msgids _ _ _ _ _ _ _ Hrec).
Qed.
Print Assumptions C07_broadcast_of_reconstruction_is_stored.
