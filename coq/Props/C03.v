(* C03 — what gets signed is exactly what was proposed. *)
From Coq Require Import String List ZArith Lia.
Require Import Lib.GoStr Ssz.Rotation Ssz.RotationProofs Ssz.TasksProofs.
Require Gen.Baked.
Require Node.Types Node.Process Node.Export Node.ExportProofs Node.Reconstructed Node.ExportNode.
Import ListNotations.
Local Open Scope Z_scope.

(* the one expansion function used by the signer, the verifier/reconstruction and the store/export
   (they all call requests.TasksToMessages on the same proposal; the model function below is
   compared with it on every run): an explicit task stands for itself ... *)
Theorem C03_expand_explicit :
  forall lines t p rest msgs,
  tk_payload t = Some p -> tasks_to_messages_in lines rest = BOk msgs ->
  tasks_to_messages_in lines (t :: rest) =
    BOk ({| ms_id := tk_id t; ms_file := tk_file t; ms_payload := p; ms_baked := false |} :: msgs).
Proof. exact expand_explicit. Qed.

(* ... tasks expand independently, in order, nothing dropped or added ... *)
Theorem C03_expand_order_count :
  forall lines a b ma mb,
  tasks_to_messages_in lines a = BOk ma -> tasks_to_messages_in lines b = BOk mb ->
  tasks_to_messages_in lines (a ++ b) = BOk (ma ++ mb).
Proof. exact expand_app. Qed.

(* ... and a baked range 0 <= start <= end <= 18632 expands to one message per position, in order,
   each with the consensus-spec signing root of the validator at that position (C17) *)
Theorem C03_expand_baked :
  forall fuel s e, 0 <= s -> e <= 18632 -> (Z.to_nat (e - s) <= fuel)%nat ->
  exists msgs, baked_range_in Gen.Baked.baked_lines fuel s e = BOk msgs /\ Z.of_nat (length msgs) = Z.max 0 (e - s) /\
    forall k, (k < length msgs)%nat ->
      exists v m, nth_error msgs k = Some m /\
                  parse_int64 (nth (Z.to_nat (s + Z.of_nat k)) Gen.Baked.baked_lines []) = Some v /\
                  ms_payload m = spec_signing_root (Z.to_N v) /\ ms_baked m = true /\
                  ms_id m = nth (Z.to_nat (s + Z.of_nat k)) Gen.Baked.baked_lines [] /\
                  ms_file m = bakedrange_prefix ++ dec_of_Z (s + Z.of_nat k).
Proof.
  intros fuel s e Hs He Hf.
  destruct (baked_range_answered Gen.Baked.baked_lines fuel s e) as (msgs & Hr & Hlen & Hnth);
    [intros i Hi; apply baked_position_answered; lia|exact Hf|].
  exists msgs. split; [exact Hr|]. split; [exact Hlen|]. intros k Hk.
  destruct (Hnth k Hk) as (m & Hn & Hm).
  destruct (baked_positions_ok (s + Z.of_nat k)) as (v & Hp & _ & Hm'); [lia|].
  rewrite Hm' in Hm. apply BOk_inj in Hm. subst m.
  exists v. eexists. split; [exact Hn|]. split; [exact Hp|].
  repeat split.
Qed.
Print Assumptions C03_expand_baked.

(* the payload stored and exported next to the final signature.  `export_signatures` shows, per
   message id of the batch, the FIRST entry of the slot (utils.PrepareSignaturesToDump; compared
   with the real function on every run) ... *)
Theorem C03_export_shows_first_entries :
  forall b out, Node.Export.export_batch b = Some out ->
  map fst out = map fst b /\
  forall id ex, In (id, ex) out -> exists e r, In (id, e :: r) b /\ ex = Node.Export.export_entry e.
Proof. exact Node.ExportProofs.export_batch_spec. Qed.

Theorem C03_export_refuses_iff_some_message_has_no_entry :
  forall b, Node.Export.export_batch b = None <-> exists id, In (id, []) b.
Proof. exact Node.ExportProofs.export_batch_refuses_iff. Qed.

(* ... the proposal files one stub per expanded message (payload, file and id of the expansion, the
   proposer's name) and, the message ids of a batch being distinct and the batch new, each stub is
   the first entry of its slot ... *)
Theorem C03_stubs_of_the_proposal_come_first :
  forall l store batch,
  (forall s, In s l -> Node.Types.rs_batch s = batch) -> NoDup (map Node.Types.rs_msgid l) ->
  (forall s, In s l -> Node.Export.first_entry store batch (Node.Types.rs_msgid s) = None) ->
  forall s, In s l ->
    Node.Export.first_entry (fold_left Node.Process.add_sig l store) batch (Node.Types.rs_msgid s) = Some s.
Proof. exact Node.ExportProofs.fresh_entries_come_first. Qed.

(* ... and whatever reconstructions are saved afterwards, by whomever and in whatever order, no
   participant other than the proposer changes that first entry: the exported payload and file stay
   the proposed ones ... *)
Theorem C03_others_never_change_the_exported_entry :
  forall l store x,
  Node.Export.first_entry store (Node.Types.rs_batch x) (Node.Types.rs_msgid x) = Some x ->
  (forall s, In s l -> Node.Types.rs_batch s = Node.Types.rs_batch x -> Node.Types.rs_msgid s = Node.Types.rs_msgid x ->
             Node.Types.rs_user s <> Node.Types.rs_user x) ->
  Node.Export.first_entry (fold_left Node.Process.add_sig l store) (Node.Types.rs_batch x) (Node.Types.rs_msgid x) = Some x.
Proof. exact Node.ExportProofs.others_never_change_the_export. Qed.

(* ... in general the exported entry is the proposer's latest one for the slot (the stub, signature
   empty, until the proposer's own reconstruction arrives): of the same batch, message and user,
   and either the stub or one of the saved entries.  _partial: that the payload INSIDE the
   proposer's own broadcast equals the proposed one is the node model's reconstruct
   (C07_broadcast_of_reconstruction_is_stored) for an honest proposer; a dishonest proposer's broadcast
   is stored as sent (DESIGN 12.7, outside) *)
Theorem C03_exported_entry_is_the_proposers_latest_partial :
  forall l store x,
  Node.Export.first_entry store (Node.Types.rs_batch x) (Node.Types.rs_msgid x) = Some x ->
  Node.Export.first_entry (fold_left Node.Process.add_sig l store) (Node.Types.rs_batch x) (Node.Types.rs_msgid x)
    = Some (Node.ExportProofs.latest x l) /\
  (Node.Types.rs_batch (Node.ExportProofs.latest x l) = Node.Types.rs_batch x /\
   Node.Types.rs_msgid (Node.ExportProofs.latest x l) = Node.Types.rs_msgid x /\
   Node.Types.rs_user (Node.ExportProofs.latest x l) = Node.Types.rs_user x) /\
  (Node.ExportProofs.latest x l = x \/ In (Node.ExportProofs.latest x l) l).
Proof.
  intros l store x H. split; [exact (Node.ExportProofs.first_entry_after_saves l store x H)|].
  split; [exact (Node.ExportProofs.latest_same_owner x l)|exact (Node.ExportProofs.latest_is_saved x l)].
Qed.
Print Assumptions C03_exported_entry_is_the_proposers_latest_partial.

Example C03_export_example :
  Node.ExportProofs.ex_exports
    [Node.ExportProofs.ex_stub 1; Node.ExportProofs.ex_stub 2; Node.ExportProofs.ex_from 2 1 55;
     Node.ExportProofs.ex_from 1 1 55; Node.ExportProofs.ex_from 1 2 66; Node.ExportProofs.ex_from 2 2 77]%N =
  Some [(1%N, {| Node.Export.ex_payload := 101%N; Node.Export.ex_sig := 55%N; Node.Export.ex_file := 1%N |});
        (2%N, {| Node.Export.ex_payload := 102%N; Node.Export.ex_sig := 66%N; Node.Export.ex_file := 2%N |})].
Proof. exact (proj2 Node.ExportProofs.export_example). Qed.

(* the step of the node's processMessage that records a batch proposal (Node/Process.v pm_prop, the
   model of the `sif.EventSigningStart` branch of node_service.go processMessage): it files exactly
   those stubs - id, file and payload of the expansion, the proposer's name, no signature - so with
   distinct ids and a batch new to the round's store each of them is what the export shows *)
Theorem C03_node_files_the_proposed_stubs_first :
  forall put m h i op batch a b c src tasks h' o,
  String.eqb (Node.Types.m_event m) Fsm.Actions.ev_sgn_start = true -> Node.Types.m_tasks m = Some tasks ->
  NoDup (map Node.Types.mt_id tasks) ->
  (forall t, In t tasks ->
     Node.Export.first_entry (Node.Reconstructed.round_store (Node.Process.h_st h) (Node.Types.m_round m)) batch (Node.Types.mt_id t) = None) ->
  Node.Process.pm_prop put m (Fsm.Types.RStart batch a b c src) h i op = Node.Process.ROk h' o ->
  forall t, In t tasks ->
    Node.Export.first_entry (Node.Reconstructed.round_store (Node.Process.h_st h') (Node.Types.m_round m)) batch (Node.Types.mt_id t)
      = Some (Node.ExportNode.stub_of m batch t).
Proof. exact Node.ExportNode.proposal_files_the_stubs_first. Qed.
Print Assumptions C03_node_files_the_proposed_stubs_first.
