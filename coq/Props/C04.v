(* C04 — secrets stay inside the airgapped machine and are never reused across rounds.
   The theorems are about the symbolic model of everything that leaves the machine (Air/Terms.v),
   whose printed structure is compared with the structure of the real result files on every run
   (every field, nesting level, byte length, and who can open which ciphertext). *)
From Coq Require Import List Arith Bool.
Require Import Air.Terms Air.SecrecyProofs Air.Lock Air.LockProofs.
Import ListNotations.

(* no result of any operation type (the four key-generation steps, signing, reinitialisation, and
   the error result of each), for any n, t, participant and batch size, lets anybody without keys
   read the seed, the long-term key, a coefficient, a sub-share or the share *)
Theorem C04_results_expose_nothing :
  forall o n t me nm err x, In x (result_terms (result_of o n t me nm err)) -> readable [] x = [].
Proof.
  intros o n t me nm err x H.
  pose proof (results_expose_only_addressed_subshares o n t me nm err [] x H) as Ho.
  destruct (readable [] x) as [|s l]; [reflexivity|].
  destruct (Ho s (or_introl eq_refl)) as (j & _ & E). discriminate.
Qed.
Print Assumptions C04_results_expose_nothing.

(* whatever set of keys somebody holds (other participants' long-term keys, even the operator's
   password), the results give him only the sub-shares addressed to participants whose key he holds *)
Theorem C04_results_expose_only_addressed_subshares :
  forall o n t me nm err ks x, In x (result_terms (result_of o n t me nm err)) ->
  forall s, In s (readable ks x) -> exists j, s = SSub j /\ existsb (key_eqb (KPart j)) ks = true.
Proof. exact results_expose_only_addressed_subshares. Qed.
Print Assumptions C04_results_expose_only_addressed_subshares.

(* a deal meant for one participant opens with that participant's key only, and is sent to him only *)
Theorem C04_deal_only_for_addressee :
  forall n t me m j k, In m (rs_msgs (result_of ODeals n t me 0 false)) -> mg_to m = Some j -> k <> j ->
  readable [KPart k] (mg_body m) = [].
Proof.
  intros n t me m j k. cbn. intros [<-|Hm] Hto Hk; [reflexivity|].
  apply in_map_iff in Hm as (j' & <- & _). cbn in Hto. injection Hto as ->.
  cbn [mg_body readable flat_map]. rewrite readable_deal. cbn [existsb key_eqb].
  destruct (Nat.eqb_spec j k); [congruence|reflexivity].
Qed.
Print Assumptions C04_deal_only_for_addressee.
Theorem C04_deal_opens_for_addressee : forall t j, readable [KPart j] (deal_for t j) = [SSub j].
Proof. intros t j. rewrite readable_deal. cbn. rewrite Nat.eqb_refl. reflexivity. Qed.

(* the database: the private key and the share occur only under the password key; in the clear
   the database holds the seed (as the code stores it) and nothing else *)
Theorem C04_database_key_and_share_only_under_password :
  forall t name v, In (name, v) (database t) ->
  In SLongKey (readable [KPass] v) \/ In SShare (readable [KPass] v) -> exists b, v = Enc KPass b.
Proof.
  intros t name v Hin Hs. cbn in Hin.
  destruct Hin as [E|[E|[E|[E|[E|[E|[]]]]]]]; injection E as _ <-.
  1, 2, 5: eexists; reflexivity.           (* private_key, public_key, bls_keyring: under the password *)
  all: cbn in Hs; intuition discriminate.  (* the other three hold neither the long-term key nor the share *)
Qed.
Print Assumptions C04_database_key_and_share_only_under_password.
Theorem C04_database_clear_text : forall t, flat_map (fun kv => readable [] (snd kv)) (database t) = [SSeed].
Proof. reflexivity. Qed.
Theorem C04_wrong_password_opens_nothing : forall pw pw' b, pw' <> pw -> open_with pw' pw (Enc KPass b) = None.
Proof. intros pw pw' b H. cbn. destruct (Nat.eqb_spec pw' pw); [contradiction|reflexivity]. Qed.

(* "a share is always saved under the operator's password" is REFUTED for the prompt of
   cmd/airgapped (known finding password-check-outside-command-lock): the password is checked in one
   critical section (enterEncryptionPasswordIfNeeded) and used in the next (the command handler); a
   password-expiry tick that falls in between clears it, and the master-key command then saves the
   share under an empty password *)
Theorem C04_share_saved_under_password_refuted : exists sched, saved (lrun sched) = [false].
Proof. exists gap_schedule. reflexivity. Qed.
Print Assumptions C04_share_saved_under_password_refuted.
(* partial: in every interleaving of commands and ticks in which the tick takes no step in that gap
   every share is saved under the password - inside each section the command owns the lock and the
   tick waits (what Machine.DropSensitiveData's own lock provides) *)
Theorem C04_share_saved_under_password_partial :
  forall sched, gapless_from linit sched = true -> Forall (fun b => b = true) (saved (lrun sched)).
Proof. intros sched Hg. apply (linv_run sched linit linv_init Hg). Qed.
Print Assumptions C04_share_saved_under_password_partial.

(* "key material of different rounds is unrelated" is REFUTED (known finding
   same-dealer-polynomial): the dealer's polynomial does not depend on the round; with the same
   participants the group key, with the same threshold as well every share, coincide *)
Theorem C04_rounds_unrelated_refuted :
  forall c1 c2 : round_cfg,
    (forall m k, coeff_source c1 m k = coeff_source c2 m k) /\
    (sorted (rc_machines c1) = sorted (rc_machines c2) -> group_key_source c1 = group_key_source c2) /\
    (sorted (rc_machines c1) = sorted (rc_machines c2) -> rc_t c1 = rc_t c2 ->
     forall x, share_source c1 x = share_source c2 x).
Proof.
  intros c1 c2. split; [reflexivity|]. split.
  - intros H. unfold group_key_source. rewrite H. reflexivity.
  - intros H Ht x. unfold share_source. rewrite H, Ht. reflexivity.
Qed.
Print Assumptions C04_rounds_unrelated_refuted.
(* what does differ between rounds: the randomness of the deals' encryption *)
Theorem C04_rounds_unrelated_partial :
  forall c1 c2 m p, rc_id c1 <> rc_id c2 -> deal_randomness c1 m p <> deal_randomness c2 m p.
Proof. exact rounds_unrelated_partial. Qed.
