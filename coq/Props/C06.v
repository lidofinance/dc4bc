(* C06 — reconstruction starts at exactly t distinct contributions to the current batch.
   Property theorems only. *)
From Coq Require Import String List ZArith Bool Lia.
Require Import Fsm.EngineDefs Fsm.Types Fsm.Actions Fsm.SigningFacts.
Require Gen.Tables.
Import ListNotations.
Local Open Scope Z_scope.

(* a contribution is accepted only for the batch being signed (never a stale or empty batch id),
   only from an awaited member of the quorum, and raises the number of confirmed participants
   by exactly one, leaving failures, quorum size and threshold unchanged *)
Theorem C06_contribution_counts_once_for_current_batch :
  forall ev p batch pid signs created out resp p',
  action_sgn_partial ev p (RPartial batch pid signs created) = CbOk out resp p' ->
  exists g part g', p_sgn p = Some g /\ batch = gc_batch g /\ batch <> 0%N /\
                 qget (gc_quorum g) pid = Some part /\ gp_status part = SgnAwait /\
                 p_sgn p' = Some g' /\ gc_batch g' = gc_batch g /\
                 count_status SgnConfirmed (gc_quorum g') = count_status SgnConfirmed (gc_quorum g) + 1 /\
                 count_status SgnError (gc_quorum g') = count_status SgnError (gc_quorum g) /\
                 length (gc_quorum g') = length (gc_quorum g) /\ p_threshold p' = p_threshold p.
Proof. exact partial_accept_spec. Qed.
Print Assumptions C06_contribution_counts_once_for_current_batch.

(* the validation that runs after every accepted signing event starts reconstruction exactly
   when at least t participants are confirmed (and not more than n-t failed), and cancels the
   batch exactly when more than n-t participants reported failure *)
Theorem C06_collect_iff_threshold :
  forall ev p req g, p_sgn p = Some g ->
  let n := Z.of_nat (length (gc_quorum g)) in
  let confirmed := count_status SgnConfirmed (gc_quorum g) in
  let failed := count_status SgnError (gc_quorum g) in
  exists out resp p',
    action_sgn_validate ev p req = CbOk out resp p' /\
    (out = ev_sgn_confirmed <->
       expired (gc_expires g) (gc_updated g) = false /\ failed <= n - p_threshold p /\ p_threshold p <= confirmed) /\
    (out = ev_sgn_cancel_error <->
       expired (gc_expires g) (gc_updated g) = false /\ n - p_threshold p < failed).
Proof.
  intros ev p req g Hg n c f. destruct (expired (gc_expires g) (gc_updated g)) eqn:He.
  - unfold action_sgn_validate. rewrite Hg, He. do 3 eexists. split; [reflexivity|]. intuition discriminate.
  - destruct (sgn_validate_cases ev p req g Hg He) as [[H1 Hv]|[(H1 & H2 & Hv)|(H1 & H2 & en & g' & Hv & _)]];
      rewrite Hv; do 3 eexists; (split; [reflexivity|]); intuition (discriminate || lia).
Qed.
Print Assumptions C06_collect_iff_threshold.

(* regenerated signing table: a finished batch (collected or cancelled) routes only the restart,
   which leads to idle; idle routes only a proposal, which opens a batch *)
Theorem C06_finished_batch_only_restart :
  forallb (fun s => forallb (fun tr => negb (String.eqb (t_src tr) s) ||
                                       (String.eqb (t_ev tr) ev_sgn_restart && String.eqb (t_dst tr) "stage_signing_idle"))
                            (ft_transitions Gen.Tables.signing_table))
          ["state_signing_partial_signs_collected"; "state_signing_partial_signs_await_cancelled_by_error";
           "state_signing_partial_signs_await_cancelled_by_timeout"]%string = true.
Proof. vm_compute. reflexivity. Qed.
Theorem C06_idle_only_start :
  forallb (fun tr => negb (String.eqb (t_src tr) "stage_signing_idle") ||
                     (String.eqb (t_ev tr) ev_sgn_start && String.eqb (t_dst tr) "state_signing_await_partial_signs"))
          (ft_transitions Gen.Tables.signing_table) = true.
Proof. vm_compute. reflexivity. Qed.
