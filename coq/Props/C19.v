(* C19 — persisting and restoring a round never changes its behaviour.  Property theorems only. *)
From Coq Require Import String List.
Require Import Fsm.Provider Fsm.CancelFinal Fsm.Loadable.
Import ListNotations.

(* an instance whose machine owns its current state and the instance rebuilt from its dump are the
   same instance: every next event gets the same acceptance, next state, response and payload *)
Theorem C19_restore_step :
  forall i ev req, owned i -> fsm_case (dump_of i) ev req = obs_of_do (inst_do i ev req).
Proof. exact restore_step. Qed.
Print Assumptions C19_restore_step.

(* since the hand-over repair (fix in FSMInstance.Do) the hypothesis is met by EVERY live instance -
   whatever state of its machine it sits in, final and hand-over states included: continuing in
   memory and continuing after dump + restore answer every event alike *)
Theorem C19_restore_step_every_live_instance :
  forall i ev req, live i -> fsm_case (dump_of i) ev req = obs_of_do (inst_do i ev req).
Proof. exact restore_step_live. Qed.
Print Assumptions C19_restore_step_every_live_instance.

Theorem C19_restored_is_owned :
  forall d i, from_dump d = LoadOk i -> d_state d <> ""%string -> owned i.
Proof. intros d i H _. exact (restored_is_owned d i H). Qed.

(* every state a round can reach - cancelled and finished rounds included - can be loaded back
   (holds since the repair of the FSM pool, fix bd98172: final states are registered; before it six
   cancelled states were not owned by any machine and one decline made a round unloadable) *)
Theorem C19_all_loadable :
  forall tr, exists i, from_dump (run_round initial_dump tr) = LoadOk i.
Proof. exact all_loadable. Qed.
Print Assumptions C19_all_loadable.

Example C19_declined_round_is_loadable :
  d_state (run_round initial_dump declined_history) = "state_sig_proposal_canceled_by_participant"%string /\
  exists i, from_dump (run_round initial_dump declined_history) = LoadOk i.
Proof. exact declined_round_is_loadable. Qed.
