(* C15 — only unaltered answers to operations the node issued reach the board, once. *)
From Coq Require Import String List.
Require Import Node.Types Node.Process Node.Facts.
Import ListNotations.

(* an accepted operation result: it is a result (not a request), an operation with that id is
   pending (visible, i.e. not retired), type and payload bytes came back unchanged, and what is
   appended to the board is exactly the result's messages, in order, attributed to this node —
   followed only by the two pool writes that retire the operation *)
Theorem C15_result_posted_only_if_pending_and_unaltered :
  forall st x h,
  execute_operation {| h_st := st; h_tr := [] |} x = ROk h tt ->
  ox_event x <> ""%string /\
  exists stored, In stored (ops_visible st) /\ op_same_id (ox_ident x) stored = true /\
                 op_type stored = op_type (ox_op x) /\ ox_stored_bytes x = ox_bytes x /\ op_round stored = op_round (ox_op x) /\
                 (ox_event x <> ev_processed ->
                    exists tail, h_tr h = sends_of (ns_user st) (ox_msgs x) ++ tail /\
                                 forall w, In w tail -> match w with WSend _ => False | _ => True end).
Proof.
  intros st x h H. destruct (execute_operation_ok st x h H) as (Ee & stored & Ef & Et & Eb & Er & _ & Htr).
  apply find_some in Ef as [Hin Hid]. split; [exact Ee|]. exists stored. repeat split; auto.
  intros Hnp. destruct (Htr Hnp) as (d & o & ->). eexists. split; [reflexivity|].
  intros w [<-|[<-|[]]]; exact I.
Qed.
Print Assumptions C15_result_posted_only_if_pending_and_unaltered.

(* "once": an answered operation is retired - an answer carrying the same operation id is refused
   afterwards and changes nothing *)
Require Import Node.Once.
Theorem C15_answered_operation_is_retired :
  forall st x h x',
  execute_operation {| h_st := st; h_tr := [] |} x = ROk h tt ->
  op_same_id (ox_ident x') (ox_ident x) = true ->
  execute_operation {| h_st := h_st h; h_tr := [] |} x' = RErr {| h_st := h_st h; h_tr := [] |}.
Proof. exact answered_operation_is_retired. Qed.
Print Assumptions C15_answered_operation_is_retired.

(* "processed" (nothing goes to the board) is the answer to a reinit operation only: offered for any
   other pending operation it is refused and the operation stays pending (since fix a91c0a0; before
   it such a file retired the operation with nothing posted) *)
Theorem C15_processed_event_only_for_reinit :
  forall st x stored,
  find (op_same_id (ox_ident x)) (ops_visible st) = Some stored ->
  ox_event x = ev_processed -> op_type stored <> ev_reinit ->
  execute_operation {| h_st := st; h_tr := [] |} x = RErr {| h_st := st; h_tr := [] |}.
Proof. exact processed_event_only_for_reinit. Qed.
