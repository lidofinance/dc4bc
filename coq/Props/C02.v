(* C02 — key generation ends with one group key and mutually consistent shares. *)
Set Warnings "-notation-overridden,-ambiguous-paths".
From mathcomp Require Import ssreflect ssrfun ssrbool eqtype ssrnat seq choice fintype bigop ssralg poly.
Set Warnings "notation-overridden,ambiguous-paths".
Require Import Crypto.Pedersen.
Set Implicit Arguments. Unset Strict Implicit. Unset Printing Implicit Defensive.
Import GRing.Theory.
Local Open Scope ring_scope.

Section C02.
Variable F : fieldType.
Variable V : lmodType F.
Variable g : V.
Variable J : finType.
Variable f : J -> {poly F}.
Variable t : nat.
Hypothesis size_f : forall j, (size (f j) <= t)%N.

(* every participant's share (the sum of the deals it received) lies on the public polynomial
   (the sum of the dealers' commitments) *)
Theorem C02_share_on_poly x : share f x *: g = pub_eval g f x.
Proof. exact: share_on_poly. Qed.

(* its constant term is the commitment of the sum of the dealers' secrets: the announced key *)
Theorem C02_group_key : pub_eval g f 0 = (\sum_j (f j).[0]) *: g.
Proof. exact: group_key. Qed.

(* it has degree t-1 *)
Theorem C02_degree : (size (joint f) <= t)%N.
Proof. exact: degree_joint. Qed.

(* t-1 shares are consistent with EVERY group secret: they determine nothing about the key, so no
   combination of them is determined to be a valid signature *)
Theorem C02_t_minus_one_blind (xs : seq F) (v : F) :
  uniq xs -> 0 \notin xs -> (size xs).+1 = t ->
  exists q : {poly F}, [/\ (size q <= t)%N, q.[0] = v & forall x, x \in xs -> q.[x] = share f x].
Proof. exact: t_minus_one_blind. Qed.
End C02.
Print Assumptions C02_share_on_poly.
Print Assumptions C02_t_minus_one_blind.

(* FSM side (the hot nodes): plain Coq statements on the model of dkg_proposal_fsm/actions.go *)
Close Scope ring_scope.
From Coq Require Import List ZArith.
Require Import Fsm.Types Fsm.Actions Fsm.KeyAgreement.
Require Fsm.Unanimous.

(* the key-confirmation phase is confirmed - the round goes on to signing-ready - only if every
   participant of the quorum announced the same group key *)
Theorem C02_master_keys_must_agree :
  forall ev p req resp p',
  action_dkg_validate 3 ev p req = CbOk (ev_dkg_confirmed 3) resp p' ->
  exists c, p_dkg p = Some c /\
    forall x y, List.In x (dc_quorum c) -> List.In y (dc_quorum c) -> dp_master (snd x) = dp_master (snd y).
Proof.
  intros ev p req resp p' H.
  destruct (Unanimous.dkg_validate_confirmed 3 ev p req resp p' H) as (c & Hc & Hall & Hk).
  (* Logic.eq_refl: ssreflect's eq_refl is in the way *)
  exists c. split; [exact Hc|exact (keys_agree_all _ Hall (Hk Logic.eq_refl))].
Qed.
Print Assumptions C02_master_keys_must_agree.

(* an announcement makes its participant confirmed only if its public polynomial is the one the
   node already retains (or none was retained yet, and it is retained now); otherwise the
   participant is marked with an error - which cancels the round - and the retained polynomial
   stays: the polynomial a hot node keeps is the one every accepted announcement carried *)
Theorem C02_accepted_announcement_carries_retained_polynomial :
  forall p pid key poly created out resp p' c,
  p_dkg p = Some c ->
  dkg_confirm 3 p pid key (Some poly) created = CbOk out resp p' ->
  exists c' d', p_dkg p' = Some c' /\ qget (dc_quorum c') pid = Some d' /\
     ((dp_status d' = dkg_confirmed 3 /\ dc_pubpoly c' = poly /\ (dc_pubpoly c = 0%N \/ dc_pubpoly c = poly)) \/
      (dp_status d' = dkg_error 3 /\ dc_pubpoly c' = dc_pubpoly c /\ dc_pubpoly c <> poly)).
Proof. exact accepted_announcement_carries_retained_polynomial. Qed.
Print Assumptions C02_accepted_announcement_carries_retained_polynomial.
