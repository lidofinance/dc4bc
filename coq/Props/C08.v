(* C08 — a round's state is a function of its own sub-log. *)
From Coq Require Import List ZArith.
Require Import Node.Types Node.Process Node.Frame.
Import ListNotations.

(* frame: for every node state, clock value and board message of round r, whatever the outcome
   (accepted, refused, operation put into the pool), the FSM dump and the signature store the
   node holds for any other round r' are exactly what they were.  (one half of the property; its
   composition with locality into "equal sub-logs give equal round states" is
   C08_round_state_is_function_of_sublog below) *)
Theorem C08_frame :
  forall now st m r', m_round m <> r' -> res_same r' st (node_step now st (InMsg m)).
Proof.
  intros now st m r' Hne. unfold node_step, process_board_message.
  pose proof (process_message_frame true now st m r' Hne) as H.
  destruct (process_message true now {| h_st := st; h_tr := [] |} m); exact H.
Qed.
Print Assumptions C08_frame.

(* determinism over schedules (generic in the step function - the node model's handler of a board
   message is one): two nodes started alike that consumed equally long prefixes of the board hold
   the same state, however polls were batched and whatever was posted in between; a node replaying
   the log from its initial state reaches the state of the node that followed it live *)
Require Import Sys.Quiescence.
Theorem C08_same_prefix_same_state :
  forall (state msg : Type) (step : state -> msg -> state) (init : list state) sched i j si sj ni nj,
  nth_error init i = Some si -> nth_error init j = Some sj -> si = sj ->
  nth_error (nodes _ _ (run _ _ step init sched)) i = Some ni ->
  nth_error (nodes _ _ (run _ _ step init sched)) j = Some nj ->
  snd ni = snd nj -> fst ni = fst nj.
Proof.
  intros state msg step init sched i j si sj ni nj Hi Hj -> Hni Hnj Hlen.
  exact (replay_reaches_live_state _ _ step init init sched sched i j sj ni nj (snd nj) Hi Hj Hni Hnj Hlen eq_refl eq_refl).
Qed.
Theorem C08_replay_reaches_live_state :
  forall (state msg : Type) (step : state -> msg -> state) (init1 init2 : list state) sched1 sched2 i j s n1 n2 k,
  nth_error init1 i = Some s -> nth_error init2 j = Some s ->
  nth_error (nodes _ _ (run _ _ step init1 sched1)) i = Some n1 ->
  nth_error (nodes _ _ (run _ _ step init2 sched2)) j = Some n2 ->
  snd n1 = k -> snd n2 = k ->
  firstn k (board _ _ (run _ _ step init1 sched1)) = firstn k (board _ _ (run _ _ step init2 sched2)) ->
  fst n1 = fst n2.
Proof. exact replay_reaches_live_state. Qed.
Print Assumptions C08_replay_reaches_live_state.

(* locality + frame = the sub-log theorem.  For EVERY log (accepted, refused, duplicated and junk
   messages alike, messages of any number of other rounds - their batch proposals included - and any
   clock values) and every node state: what the node holds for round r (dump, signature store, the
   batch sources kept for the round) after the whole log equals what it holds after the
   sub-sequence of round r's messages alone.  No proviso: the ghost store of decoded batch sources
   is kept per round in the model, as the bytes travel inside the round's own payload in the code. *)
Require Import Node.Local.
Theorem C08_round_state_is_function_of_sublog :
  forall r l a b, lagree r a b ->
  lagree r (run_msgs a l) (run_msgs b (sublog r l)).
Proof. exact round_state_is_function_of_sublog. Qed.
Print Assumptions C08_round_state_is_function_of_sublog.

(* hence two logs with the same round-r sub-sequence leave a node with the same round r *)
Theorem C08_same_sublog_same_round :
  forall r l1 l2 a, sublog r l1 = sublog r l2 ->
  ragree r (run_msgs a l1) (run_msgs a l2).
Proof.
  intros r l1 l2 a He.
  pose proof (C08_round_state_is_function_of_sublog r l1 a a (lagree_refl r a)) as (_ & _ & A1 & A2 & _).
  pose proof (C08_round_state_is_function_of_sublog r l2 a a (lagree_refl r a)) as (_ & _ & B1 & B2 & _).
  rewrite He in A1, A2. split; congruence.
Qed.

(* locality alone: handling a message of round r on two node states that agree on round r (and on
   identity and verification switch) yields the same outcome for round r *)
Theorem C08_process_message_local :
  forall put now a b m, lagree (m_round m) a b ->
  rrel (m_round m) (process_message put now {| h_st := a; h_tr := [] |} m) (process_message put now {| h_st := b; h_tr := [] |} m).
Proof. exact process_message_local. Qed.

(* non-vacuity: two rounds interleaved on one board; round 9 after the whole log is round 9 after
   its own two messages, it exists, and the confirmation moved it *)
Example C08_sublog_example :
  let a := empty_node 2%N 3%N in
  sublog 9%N ex_log = [(777%Z, ex_prop 9%N); (777%Z, ex_confirm 9%N)] /\
  tget' (ns_rounds (run_msgs a ex_log)) 9%N = tget' (ns_rounds (run_msgs a (sublog 9%N ex_log))) 9%N /\
  tget' (ns_rounds (run_msgs a ex_log)) 9%N <> None /\
  tget' (ns_rounds (run_msgs a ex_log)) 9%N <> tget' (ns_rounds (run_msgs a [(777%Z, ex_prop 9%N)])) 9%N.
Proof. exact sublog_example. Qed.
