(* C18 — rejected input is a no-op: board messages and reinit messages on the node, operation files on
   the airgapped machine, hostile identifiers in file names (crash-freedom is decided by the harness). *)
From Coq Require Import List ZArith.
Require Import Node.Types Node.Process Node.Facts.
Require Node.Walk.
Import ListNotations.

(* a refused board message leaves the node's state store untouched (no write to rounds, operations,
   tombstones or signatures) - for every store, every message and every state the round is found in.
   On the pinned tree the statement needed the exclusion "the round is not in a cancelled signing
   state": there the lazy restart was persisted before the message was judged (defect repaired, see
   known_findings `C18-fixed-b53c527`); the restart is now persisted only with the
   accepted message's own save. *)
Theorem C18_refused_message_writes_nothing :
  forall put now st m h,
  process_message put now {| h_st := st; h_tr := [] |} m = RErr h ->
  no_state_writes (h_tr h).
Proof.
  intros put now st m h H. unfold no_state_writes. apply Forall_forall.
  pose proof (Node.Walk.process_message_trace (fun w => match w with WSrc _ _ _ | WSend _ => True | _ => False end)
                put now {| h_st := st; h_tr := [] |} m (Forall_nil _)) as Ht.
  rewrite H in Ht. apply Ht.
  (* before a refusal: a broadcast or a batch source, never signatures (`pre_ok m true (PSigs _) = false`) *)
  intros st' [sigs|src tasks|l] Hp; [exact I|exact I|discriminate Hp].
Qed.
Print Assumptions C18_refused_message_writes_nothing.
(* the same for the whole handler of a board message, the operation pool included (before the
   repairs of the handler it could report an error AFTER the round had been saved, when the very
   same operation was still pending; now the operation is put before the round is saved, and
   putting a pending operation again is no error) *)
Theorem C18_refused_board_message_writes_nothing :
  forall now st m h,
  process_board_message now {| h_st := st; h_tr := [] |} m = RErr h ->
  no_state_writes (h_tr h).
Proof.
  intros now st m h. unfold process_board_message.
  destruct (process_message true now {| h_st := st; h_tr := [] |} m) as [h1 o|h1|] eqn:E; try discriminate.
  intros H. inversion H; subst. exact (C18_refused_message_writes_nothing _ _ _ _ _ E).
Qed.
Print Assumptions C18_refused_board_message_writes_nothing.

Require Import Air.Reject Air.RejectProofs.

(* an operation file the machine rejects changes neither its DKG instances nor its log ... *)
Theorem C18_rejected_operation_changes_nothing : forall m o m', aprocess m o = (m', ARejected) -> m' = m.
Proof. exact rejected_changes_nothing. Qed.
(* ... so every operation fed afterwards is answered as if it had never been fed *)
Theorem C18_rejected_then_rest :
  forall m o rest, snd (aprocess m o) = ARejected ->
  afeed m (o :: rest) = (fst (afeed m rest), ARejected :: snd (afeed m rest)).
Proof.
  intros m o rest H. cbn [afeed]. destruct (aprocess m o) as [m' c] eqn:E. cbn in H. subst c.
  rewrite (rejected_changes_nothing _ _ _ E). destruct (afeed m rest). reflexivity.
Qed.
(* a malformed first operation of a round is rejected (there is nobody to address an error to) *)
Theorem C18_malformed_commits_rejected :
  forall m r, has_inst m r = false ->
  snd (aprocess m {| ao_kind := KCommits; ao_round := r; ao_wellformed := false |}) = ARejected.
Proof. exact malformed_commits_rejected. Qed.
Print Assumptions C18_rejected_then_rest.

(* reinitialisation messages (not signature-checked): undecodable, naming no round (blank
   identifier - refused since fix 15fca17 before the operation pool is touched), or naming a round
   the node already holds: the node's state is exactly what it was *)
Theorem C18_unusable_reinit_writes_nothing :
  forall now st r,
  (match r with None => True | Some rd => rd_id rd = 0%N \/ tget' (ns_rounds st) (rd_id rd) <> None end) ->
  match reinit_dkg now {| h_st := st; h_tr := [] |} r with
  | ROk h _ | RErr h => h = {| h_st := st; h_tr := [] |}
  | RPanic => False
  end.
Proof. exact unusable_reinit_writes_nothing. Qed.

(* a reinit operation file - carried out or refused - touches no round but the one it names: no other
   round gains or loses an instance or a key share (repaired by a9d7a75: a refused reinit file naming
   another round than its embedded operations left that round's key share in the database) *)
Require Import Air.Reinit Air.ReinitProofs.
Theorem C18_reinit_operation_touches_only_its_round :
  forall outer m ops r, r <> outer ->
  mem r (rm_inst (fst (handle_reinit outer m ops))) = mem r (rm_inst m) /\
  mem r (rm_shares (fst (handle_reinit outer m ops))) = mem r (rm_shares m).
Proof.
  intros outer m ops r Hne. rewrite handle_reinit_eq.
  apply (reinit_run_inv (fun m' => mem r (rm_inst m') = mem r (rm_inst m) /\ mem r (rm_shares m') = mem r (rm_shares m))); [|auto].
  intros m1 o _ Ho [H1 H2]. destruct (rstep_other m1 o r) as [E1 E2]; [congruence|].
  rewrite E1, E2. auto.
Qed.
Print Assumptions C18_reinit_operation_touches_only_its_round.

(* the name of the file an operation travels in (client/types Operation.Filename, Node/FileName.v;
   repaired by 28a7d4a, 3a9e4b1, 1b86b05: identifiers from the board went into it unsanitised) *)
Require Import Node.FileName Node.FileNameProofs.

(* whatever BYTES the round identifier, the operation identifier and the batch identifier are, every
   byte of the file name is a letter, a digit, '.', '_' or '-': no path separator, no NUL, no backslash -
   the name cannot leave the folder it is joined to, and creating the file cannot fail for its name *)
Theorem C18_file_name_has_no_separator :
  forall k round id batch b, In b (file_name k round id batch) ->
  (b <> 47 /\ b <> 0 /\ b <> 92 /\ 45 <= b <= 122)%N.
Proof.
  intros k round id batch b Hin. apply safe_char_not_separator.
  exact (proj1 (forallb_forall _ _) (file_name_safe k round id batch) b Hin).
Qed.
Print Assumptions C18_file_name_has_no_separator.

(* an identifier that consists of such characters goes through unchanged *)
Theorem C18_file_name_part_keeps_safe_identifiers :
  forall s, forallb safe_char s = true -> file_name_part s = s.
Proof. intros s. apply file_name_part_fuel_keeps. apply Nat.le_refl. Qed.
