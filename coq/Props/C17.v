(* C17 — baked withdrawal-credential messages equal the consensus-spec signing roots.
   Property theorems only: each is a lemma proved elsewhere, a short corollary of one, or its
   instantiation at the regenerated list. *)
From Coq Require Import List ZArith Lia.
Require Import Lib.GoStr Ssz.Ssz Ssz.SszProofs Ssz.Rotation Ssz.RotationProofs.
Require Gen.Baked.
Import ListNotations.
Local Open Scope Z_scope.

(* the hasher program fastssz generates for any container of fixed-size fields computes the
   consensus-spec hash_tree_root, for all field values (any hash with 32-byte output) *)
Theorem C17_fastssz_eq_spec :
  forall (H : list N -> list N), (forall x, len32 (H x)) ->
  forall fs vs, NoDup (map fst fs) -> Forall2 (fun f v => wt (snd f) v) fs vs ->
  hash_root H (compile fs) (mkenv fs vs) = Some (htr_container H vs).
Proof. exact hash_root_compile. Qed.
Print Assumptions C17_fastssz_eq_spec.

(* for every validator index, the message offered for signing is
   compute_signing_root(BLSToExecutionChange(index, key, addr), compute_domain(...)) *)
Theorem C17_signing_root_spec :
  forall index : N, model_signing_root index = Some (spec_signing_root index).
Proof. exact model_signing_root_spec. Qed.
Print Assumptions C17_signing_root_spec.

Theorem C17_baked_positions :
  forall i, 0 <= i < 18632 ->
  exists v, parse_int64 (nth (Z.to_nat i) Gen.Baked.baked_lines []) = Some v /\
            0 <= v < 18446744073709551616 /\
            reconstruct_baked_in Gen.Baked.baked_lines i =
              BOk {| ms_id := nth (Z.to_nat i) Gen.Baked.baked_lines [];
                     ms_file := bakedrange_prefix ++ dec_of_Z i;
                     ms_payload := spec_signing_root (Z.to_N v);
                     ms_baked := true |}.
Proof. exact baked_positions_ok. Qed.
Print Assumptions C17_baked_positions.

Theorem C17_no_index_twice : NoDup (values_of (removelast Gen.Baked.baked_lines)).
Proof. destruct baked_shape as (main & -> & _ & _ & Hnd). rewrite removelast_last. exact Hnd. Qed.
Print Assumptions C17_no_index_twice.

Theorem C17_outside_refused :
  forall i, i < 0 \/ 18632 <= i -> exists e, reconstruct_baked_in Gen.Baked.baked_lines i = BErr e.
Proof. exact baked_positions_refused. Qed.
Print Assumptions C17_outside_refused.

Theorem C17_never_panics : forall i, reconstruct_baked_in Gen.Baked.baked_lines i <> BPanic.
Proof. exact (never_panics Gen.Baked.baked_lines). Qed.
Print Assumptions C17_never_panics.

(* non-vacuity: a concrete position and the root the implementation's own unit test expects *)
Example C17_example_root :
  model_signing_root 393395 =
  Some [35;204;255;199;118;126;27;154;84;179;225;140;152;111;0;208;52;88;37;188;171;33;234;229;
        254;146;200;73;214;207;237;180]%N.
Proof. vm_compute. reflexivity. Qed.

(* a whole baked RANGE that reaches outside the list is refused, whatever its (board-supplied)
   width - the expansion stops at the first position outside; the model's loop takes at most
   |list| + 1 steps, never a number of steps that depends on the width *)
Require Import Ssz.TasksProofs.
Theorem C17_range_outside_refused :
  forall t, tk_payload t = None -> tk_start t < tk_end t ->
  (tk_start t < 0 \/ 18632 < tk_end t) ->
  forall rest, exists err, tasks_to_messages (t :: rest) = BErr err.
Proof.
  intros t Hp Hlt Hout rest. unfold tasks_to_messages. cbn [tasks_to_messages_in]. rewrite Hp, baked_length.
  set (s := tk_start t) in *. set (e := tk_end t) in *.
  (* the first position outside: s itself if negative, else the end of the list *)
  assert (Hr : exists r, s <= r < e /\ r - s <= 18632 /\ (r < 0 \/ 18632 <= r) /\ (s < r -> 0 <= s /\ r <= 18632)).
  { destruct (Z_lt_ge_dec s 0); [exists s|exists (Z.max s 18632)]; lia. }
  destruct Hr as (r & Hr & Hw & Hbad & Hpos).
  destruct (baked_range_refused Gen.Baked.baked_lines (Z.to_nat (Z.min (e - s) (18633 + 1))) s r e) as [err ->];
    [intros i Hi; apply baked_position_answered; lia|apply baked_positions_refused, Hbad|exact Hr|lia|].
  eexists. reflexivity.
Qed.
Print Assumptions C17_range_outside_refused.
