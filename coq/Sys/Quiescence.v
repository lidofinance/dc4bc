(* C07 (system level): nodes are deterministic consumers of one append-only log.  Whatever the
   delivery order, and however messages are appended in between, a node that has consumed the
   whole board is in the state obtained by folding its step function over the board - so every
   statement about "the node's state after this log" (the C07 theorems on the signing round, the
   C08 theorems on sub-logs) holds on every node at quiescence. *)
From Coq Require Import List Lia.
Import ListNotations.

Section System.
  Variables (state msg : Type) (step : state -> msg -> state).

  Record sys := { board : list msg; nodes : list (state * nat) }.   (* per node: its state, how much it consumed *)

  Inductive action :=
  | Post (m : msg)          (* anybody appends a message *)
  | Deliver (i : nat).      (* node i consumes its next message, if there is one *)

  Fixpoint upd {A} (l : list A) (i : nat) (f : A -> A) : list A :=
    match l, i with
    | [], _ => []
    | x :: r, O => f x :: r
    | x :: r, S j => x :: upd r j f
    end.

  Definition deliver1 (b : list msg) (n : state * nat) : state * nat :=
    match nth_error b (snd n) with
    | Some m => (step (fst n) m, S (snd n))
    | None => n
    end.

  Definition act (s : sys) (a : action) : sys :=
    match a with
    | Post m => {| board := board s ++ [m]; nodes := nodes s |}
    | Deliver i => {| board := board s; nodes := upd (nodes s) i (deliver1 (board s)) |}
    end.

  Variable init : list state.
  Definition start : sys := {| board := []; nodes := map (fun s => (s, 0)) init |}.
  Definition run (sched : list action) : sys := fold_left act sched start.

  (* every node's state is the fold of its step over the prefix of the board it has consumed *)
  Definition node_ok (b : list msg) (s0 : state) (n : state * nat) : Prop :=
    snd n <= length b /\ fst n = fold_left step (firstn (snd n) b) s0.

  Lemma firstn_app_le {A} (l r : list A) k : k <= length l -> firstn k (l ++ r) = firstn k l.
  Proof. intros H. rewrite firstn_app. replace (k - length l) with 0 by lia. apply app_nil_r. Qed.

  Lemma firstn_S_nth {A} (l : list A) k x : nth_error l k = Some x -> firstn (S k) l = firstn k l ++ [x].
  Proof.
    revert k. induction l as [|a l IH]; intros [|k] H; cbn in *; try discriminate.
    - inversion H. reflexivity.
    - rewrite (IH k H). reflexivity.
  Qed.

  Lemma node_ok_post b m s0 n : node_ok b s0 n -> node_ok (b ++ [m]) s0 n.
  Proof. intros [H1 H2]. split; [rewrite app_length; lia|]. rewrite firstn_app_le by exact H1. exact H2. Qed.

  Lemma node_ok_deliver b s0 n : node_ok b s0 n -> node_ok b s0 (deliver1 b n).
  Proof.
    intros [H1 H2]. unfold deliver1. destruct (nth_error b (snd n)) as [m|] eqn:E; [|split; assumption].
    split; cbn [fst snd].
    - assert (snd n < length b) by (apply nth_error_Some; congruence). lia.
    - rewrite (firstn_S_nth _ _ _ E), fold_left_app. rewrite <- H2. reflexivity.
  Qed.

  Lemma Forall2_upd {A B} (R : A -> B -> Prop) (la : list A) (lb : list B) i f :
    Forall2 R la lb -> (forall a b, R a b -> R a (f b)) -> Forall2 R la (upd lb i f).
  Proof.
    intros H Hf. revert i. induction H as [|a b la lb Hab H IH]; intros i; [destruct i; constructor|].
    destruct i; constructor; auto.
  Qed.

  Theorem run_inv sched : Forall2 (node_ok (board (run sched))) init (nodes (run sched)).
  Proof.
    unfold run.
    assert (H0 : Forall2 (node_ok (board start)) init (nodes start)).
    { cbn. induction init; constructor; [split; cbn; [lia|reflexivity]|assumption]. }
    revert H0. generalize start. induction sched as [|a r IH]; intros s Hs; [exact Hs|].
    apply IH. destruct a as [m|i]; cbn [act board nodes].
    - clear -Hs. induction Hs; constructor; [apply node_ok_post; assumption|assumption].
    - apply Forall2_upd; [exact Hs|]. intros s0 n. apply node_ok_deliver.
  Qed.

  Theorem quiescent_nodes_hold_the_fold sched :
    Forall2 (fun s0 n => snd n = length (board (run sched)) -> fst n = fold_left step (board (run sched)) s0)
            init (nodes (run sched)).
  Proof.
    pose proof (run_inv sched) as H. induction H as [|s0 n l l' [H1 H2] H IH]; constructor; [|exact IH].
    intros Hq. rewrite H2, Hq, firstn_all. reflexivity.
  Qed.

  Theorem board_append_only sched a : exists suffix, board (run (sched ++ [a])) = board (run sched) ++ suffix.
  Proof.
    unfold run. rewrite fold_left_app. destruct a.
    - eexists. reflexivity.
    - exists []. rewrite app_nil_r. reflexivity.
  Qed.
End System.

Lemma Forall2_nth {A B} (P : A -> B -> Prop) l l' k a b :
  Forall2 P l l' -> nth_error l k = Some a -> nth_error l' k = Some b -> P a b.
Proof.
  intros H. revert k. induction H as [|x y l l' Hxy H IH]; intros k Ha Hb; destruct k; try discriminate.
  - inversion Ha; inversion Hb; subst. exact Hxy.
  - eapply IH; eassumption.
Qed.

(* used for C08: two nodes with the same initial state that consumed equally long prefixes of boards
   that agree on them hold the same state, whatever the two schedules were (batching of polls,
   interleaving with postings) - e.g. a live run and a later replay *)
Section Determinism.
  Variables (state msg : Type) (step : state -> msg -> state).

  Theorem replay_reaches_live_state (init1 init2 : list state) sched1 sched2 i j s n1 n2 k :
    nth_error init1 i = Some s -> nth_error init2 j = Some s ->
    nth_error (nodes _ _ (run _ _ step init1 sched1)) i = Some n1 ->
    nth_error (nodes _ _ (run _ _ step init2 sched2)) j = Some n2 ->
    snd n1 = k -> snd n2 = k ->
    firstn k (board _ _ (run _ _ step init1 sched1)) = firstn k (board _ _ (run _ _ step init2 sched2)) ->
    fst n1 = fst n2.
  Proof.
    intros Hi Hj Hn1 Hn2 Hk1 Hk2 Hb.
    destruct (Forall2_nth _ _ _ _ _ _ (run_inv _ _ step init1 sched1) Hi Hn1) as [_ E1].
    destruct (Forall2_nth _ _ _ _ _ _ (run_inv _ _ step init2 sched2) Hj Hn2) as [_ E2].
    rewrite E1, E2, Hk1, Hk2, Hb. reflexivity.
  Qed.
End Determinism.
