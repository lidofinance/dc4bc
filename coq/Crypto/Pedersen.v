(* Pedersen / joint-Feldman key generation as linear algebra over any field F, with the group
   written as a left module V over F (commitment of a scalar a is a *: g).
   Dealers j have secret polynomials f_j of size <= t; deal to participant i is f_j(i+1);
   participant i's share is the sum of the deals; the public polynomial is the sum of the
   commitment polynomials. *)
Set Warnings "-notation-overridden,-ambiguous-paths".
From mathcomp Require Import ssreflect ssrfun ssrbool eqtype ssrnat seq choice fintype bigop ssralg poly.
Set Warnings "notation-overridden,ambiguous-paths".
Require Import Crypto.Lagrange.
Set Implicit Arguments. Unset Strict Implicit. Unset Printing Implicit Defensive.
Import GRing.Theory.
Local Open Scope ring_scope.

Section Pedersen.
Variable F : fieldType.
Variable V : lmodType F.
Variable g : V.
Variable J : finType.                 (* the dealers (= the participants) *)
Variable f : J -> {poly F}.           (* their secret polynomials *)
Variable t : nat.
Hypothesis size_f : forall j, (size (f j) <= t)%N.

Definition joint : {poly F} := \sum_j f j.                  (* the (never materialised) joint polynomial *)
Definition share (x : F) : F := \sum_j (f j).[x].            (* sum of the deals received at abscissa x *)
Definition commit_eval (p : {poly F}) (x : F) : V := p.[x] *: g.   (* evaluation of the committed polynomial "in the exponent" *)
Definition pub_eval (x : F) : V := \sum_j commit_eval (f j) x.     (* public polynomial = sum of the dealers' commitments *)

Lemma share_joint x : share x = joint.[x].
Proof. by rewrite /share /joint horner_sum. Qed.

(* every participant's share lies on the public polynomial *)
Theorem share_on_poly x : share x *: g = pub_eval x.
Proof. by rewrite /pub_eval /commit_eval /share scaler_suml. Qed.

(* the public polynomial's constant term is the commitment of the sum of the dealers' secrets *)
Theorem group_key : pub_eval 0 = (\sum_j (f j).[0]) *: g.
Proof. by rewrite -share_on_poly. Qed.

Theorem degree_joint : (size joint <= t)%N.
Proof. by apply: leq_trans (size_sum _ _ _) _; apply/bigmax_leqP => j _; exact: size_f. Qed.

(* any t shares at distinct abscissae sign consistently: the Lagrange combination of the partial
   signatures share(x) *: h is joint(0) *: h, whatever the subset and order (C01) *)
Theorem t_shares_sign (W : lmodType F) (h : W) (xs : seq F) :
  uniq xs -> (t <= size xs)%N ->
  \sum_(x <- xs) w0 xs x *: (share x *: h) = joint.[0] *: h.
Proof.
move=> ux st.
have sj : (size joint <= size xs)%N by apply: leq_trans degree_joint st.
rewrite -(lagrange0_lmod h ux sj).
by apply: eq_bigr => x _; rewrite share_joint.
Qed.

(* t-1 shares are consistent with every group secret v: there is a polynomial of size <= t through
   them with constant term v (so they determine nothing about the key) *)
Theorem t_minus_one_blind (xs : seq F) (v : F) :
  uniq xs -> 0 \notin xs -> (size xs).+1 = t ->
  exists q : {poly F}, [/\ (size q <= t)%N, q.[0] = v & forall x, x \in xs -> q.[x] = share x].
Proof.
move=> ux z0 st.
have [q [sq q0 qx]] := blind joint v ux z0.
exists q; split=> //; first by rewrite -st.
by move=> x xin; rewrite qx // share_joint.
Qed.

End Pedersen.
