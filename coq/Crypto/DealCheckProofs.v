(* C11: the addressee's check of a deal (Crypto/DealCheck.v) accepts exactly the deals that are
   consistent with the broadcast commitments; every deviation kind is the failure of one condition. *)
From Coq Require Import List ZArith Bool.
Require Import Crypto.Zr Crypto.DealCheck.
Import ListNotations.
Local Open Scope Z_scope.

Lemma commits_eqb_spec a b : commits_eqb a b = true <-> map zr a = map zr b.
Proof.
  revert b. induction a as [|x a IH]; intros [|y b]; cbn; try (split; discriminate); [tauto|].
  rewrite andb_true_iff, Z.eqb_eq, IH. split; [intros [-> ->]; reflexivity|intros H; inversion H; auto].
Qed.

Lemma eval_poly_zr_ext a b x : map zr a = map zr b -> eval_poly a x = eval_poly b x.
Proof.
  revert b. induction a as [|c a IH]; intros [|d b] H; try discriminate; [reflexivity|].
  inversion H as [[Hc Hr]]. cbn [eval_poly]. rewrite (IH b Hr). unfold zadd, zmul, zr in *.
  rewrite <- (Zplus_mod_idemp_l c), Hc, Zplus_mod_idemp_l. reflexivity.
Qed.

(* a deal is accepted exactly when it is readable, well-formed, carries the broadcast commitments
   (same number, same values) and its share lies on the polynomial THEY commit to *)
Theorem accept_iff_consistent t bc d i :
  accepts t bc d i = true <->
  dl_fault d = FNone /\ map zr (dl_commits d) = map zr bc /\
  zr (dl_share d) = eval_poly bc (i + 1).
Proof.
  unfold accepts, vss_ok. destruct (dl_fault d); try (split; [discriminate|intros (H & _); discriminate]).
  rewrite !andb_true_iff, Z.eqb_eq, commits_eqb_spec. split.
  - intros (Hs & Hc). rewrite (eval_poly_zr_ext _ _ (i + 1) Hc). auto.
  - intros (_ & Hc & Hs). rewrite (eval_poly_zr_ext _ _ (i + 1) Hc). auto.
Qed.

Lemma zr_eval_poly c x : zr (eval_poly c x) = eval_poly c x.
Proof. destruct c; [reflexivity|]. apply Z.mod_mod. discriminate. Qed.

(* a deal made of the broadcast polynomial itself is accepted - whatever the polynomial and whatever
   the threshold t, which the check does not look at *)
Lemma own_polynomial_accepted t c i :
  accepts t c {| dl_fault := FNone; dl_commits := c; dl_share := eval_poly c (i + 1) |} i = true.
Proof. apply accept_iff_consistent. exact (conj eq_refl (conj eq_refl (zr_eval_poly c (i + 1)))). Qed.

(* every kind of deviation is refused: each is the failure of one of the three conditions *)
Lemma refused_unless t bc d i :
  ~ (dl_fault d = FNone /\ map zr (dl_commits d) = map zr bc /\ zr (dl_share d) = eval_poly bc (i + 1)) ->
  accepts t bc d i = false.
Proof. rewrite <- (accept_iff_consistent t). apply not_true_is_false. Qed.

Theorem one_bad_deal_is_reported t deals i bc d :
  In (bc, d) deals -> accepts t bc d i = false -> responses_result t deals i = ev_resp_err.
Proof.
  intros Hin Hb. unfold responses_result.
  destruct (forallb (fun bd => accepts t (fst bd) (snd bd) i) deals) eqn:E; [|reflexivity].
  rewrite forallb_forall in E. specialize (E _ Hin). cbn in E. congruence.
Qed.
Theorem response_ok_all_consistent t deals i :
  responses_result t deals i = ev_resp_ok ->
  forall bc d, In (bc, d) deals ->
    dl_fault d = FNone /\ map zr (dl_commits d) = map zr bc /\ zr (dl_share d) = eval_poly bc (i + 1).
Proof.
  unfold responses_result. destruct (forallb _ deals) eqn:E; [|discriminate]. intros _ bc d Hin.
  rewrite forallb_forall in E. apply (accept_iff_consistent t bc d i). apply (E _ Hin).
Qed.
