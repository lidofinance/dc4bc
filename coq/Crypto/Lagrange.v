(* Lagrange interpolation at 0 over any field: the algebra behind share.RecoverCommit / tbls.Recover
   (`w0 xs x` is the weight kyber gives the share at abscissa x). *)
Set Warnings "-notation-overridden,-ambiguous-paths".
From mathcomp Require Import ssreflect ssrfun ssrbool eqtype ssrnat seq choice fintype bigop ssralg poly.
Set Warnings "notation-overridden,ambiguous-paths".
Set Implicit Arguments. Unset Strict Implicit. Unset Printing Implicit Defensive.
Import GRing.Theory.
Local Open Scope ring_scope.

Section Lagrange.
Variable F : fieldType.
Implicit Types (p q : {poly F}) (xs : seq F) (x y : F).

Definition others xs x := [seq y <- xs | y != x].
Definition lcoef xs x : F := \prod_(y <- others xs x) (x - y)^-1.
Definition lnum xs x : {poly F} := \prod_(y <- others xs x) ('X - y%:P).
Definition lbasis xs x : {poly F} := lcoef xs x *: lnum xs x.
Definition interp xs (f : F -> F) : {poly F} := \sum_(x <- xs) f x *: lbasis xs x.
Definition w0 xs x : F := \prod_(y <- others xs x) (y / (y - x)).

Lemma size_others xs x : uniq xs -> x \in xs -> (size (others xs x)).+1 = size xs.
Proof.
move=> uxs xin; rewrite /others size_filter.
have := count_predC (pred1 x) xs; rewrite (count_uniq_mem x uxs) xin /= add1n => <-.
by congr (_.+1); apply: eq_count => y.
Qed.

Lemma size_lbasis xs x : uniq xs -> x \in xs -> (size (lbasis xs x) <= size xs)%N.
Proof.
move=> uxs xin; apply: leq_trans (size_scale_leq _ _) _.
by rewrite /lnum size_prod_XsubC size_others.
Qed.

Lemma size_interp xs f : uniq xs -> (size (interp xs f) <= size xs)%N.
Proof.
move=> uxs; apply: leq_trans (size_sum _ _ _) _; apply/bigmax_leqP_seq => x xin _.
by apply: leq_trans (size_scale_leq _ _) _; apply: size_lbasis.
Qed.

Lemma lnum_eval xs x z : (lnum xs x).[z] = \prod_(y <- others xs x) (z - y).
Proof.
by rewrite /lnum horner_prod; apply: eq_bigr => y _; rewrite hornerXsubC.
Qed.

Lemma lbasis_same xs x : (lbasis xs x).[x] = 1.
Proof.
rewrite /lbasis hornerZ lnum_eval /lcoef -big_split /=.
rewrite big_seq big1 // => y; rewrite mem_filter => /andP[yx _].
by rewrite mulVf // subr_eq0 eq_sym.
Qed.

Lemma lbasis_other xs x z : z \in xs -> z != x -> (lbasis xs x).[z] = 0.
Proof.
move=> zin zx; rewrite /lbasis hornerZ lnum_eval.
have zo : z \in others xs x by rewrite mem_filter zx zin.
by rewrite (big_rem z zo) /= subrr mul0r mulr0.
Qed.

Lemma interp_eval xs f z : uniq xs -> z \in xs -> (interp xs f).[z] = f z.
Proof.
move=> uxs zin; rewrite /interp horner_sum (big_rem z zin) /=.
rewrite hornerZ lbasis_same mulr1 big_seq big1 ?addr0 // => x xin.
have xz : z != x by apply: contraTneq xin => <-; rewrite mem_rem_uniqF.
by rewrite hornerZ lbasis_other ?mulr0.
Qed.

Theorem interp_unique xs p : uniq xs -> (size p <= size xs)%N -> interp xs (horner p) = p.
Proof.
move=> uxs sp; apply/eqP; rewrite -subr_eq0; apply/negPn/negP => nz.
have sz : (size (interp xs (horner p) - p)%R <= size xs)%N.
  by apply: leq_trans (size_add _ _) _; rewrite size_opp geq_max size_interp.
have roots : all (root (interp xs (horner p) - p)) xs.
  by apply/allP => z zin; rewrite /root hornerD hornerN interp_eval // subrr.
by have := max_poly_roots nz roots uxs; rewrite ltnNge sz.
Qed.

Lemma lbasis_at0 xs x : (lbasis xs x).[0] = w0 xs x.
Proof.
rewrite /lbasis hornerZ lnum_eval /lcoef /w0 -big_split /=.
apply: eq_big_seq => y; rewrite mem_filter => /andP[yx _].
by rewrite sub0r mulrN -mulNr -invrN opprB mulrC.
Qed.

Theorem lagrange0 xs p : uniq xs -> (size p <= size xs)%N ->
  \sum_(x <- xs) w0 xs x * p.[x] = p.[0].
Proof.
move=> uxs sp; rewrite -{2}(interp_unique uxs sp) /interp horner_sum.
by apply: eq_bigr => x _; rewrite hornerZ lbasis_at0 mulrC.
Qed.

(* any two admissible node sets give the same value *)
Corollary lagrange0_agree xs ys p : uniq xs -> uniq ys ->
  (size p <= size xs)%N -> (size p <= size ys)%N ->
  \sum_(x <- xs) w0 xs x * p.[x] = \sum_(y <- ys) w0 ys y * p.[y].
Proof. by move=> ux uy sx sy; rewrite !lagrange0. Qed.

(* module version: partial signatures sigma_x = p(x) *: h combine to p(0) *: h *)
Corollary lagrange0_lmod (V : lmodType F) (h : V) xs p :
  uniq xs -> (size p <= size xs)%N ->
  \sum_(x <- xs) w0 xs x *: (p.[x] *: h) = p.[0] *: h.
Proof.
move=> ux sp; rewrite -(lagrange0 ux sp) scaler_suml.
by apply: eq_bigr => x _; rewrite scalerA.
Qed.

(* t-1 shares are consistent with every secret v *)
Theorem blind xs p v : uniq xs -> 0 \notin xs ->
  exists q : {poly F}, [/\ (size q <= (size xs).+1)%N, q.[0] = v
                        & forall x, x \in xs -> q.[x] = p.[x]].
Proof.
move=> ux z0.
pose f := fun x => if x == 0 then v else p.[x].
have uz : uniq (0 :: xs) by rewrite /= z0 ux.
exists (interp (0 :: xs) f); split.
- exact: size_interp.
- by rewrite interp_eval ?mem_head // /f eqxx.
- move=> x xin; rewrite interp_eval ?in_cons ?xin ?orbT // /f.
  by case: eqP => // x0; move: z0; rewrite -x0 xin.
Qed.
End Lagrange.
