(* Generic facts about the engine (any table, any callbacks): Do as an equation over its stages;
   after Do the machine state is at most three table hops away from where it was, and a successful
   Do reports the machine state. *)
From Coq Require Import String List Bool.
Require Import Fsm.EngineDefs Fsm.Types Fsm.Engine.
Import ListNotations.
Local Open Scope string_scope.

Lemma find_trans_In ts s e tr :
  find_trans ts s e = Some tr -> In tr ts /\ t_src tr = s /\ t_ev tr = e.
Proof.
  induction ts as [|t r IH]; cbn [find_trans]; [discriminate|].
  destruct (String.eqb (t_src t) s && String.eqb (t_ev t) e) eqn:E.
  - intros H. inversion H; subst. apply andb_prop in E as [E1 E2].
    apply String.eqb_eq in E1. apply String.eqb_eq in E2. auto with datatypes.
  - intros H. destruct (IH H) as (Hin & Hs & He). auto with datatypes.
Qed.

(* Do is answered with DoRoute unless (cur, ev) has a transition that is not internal *)
Definition routed (t : ftable) (cur ev : string) : bool :=
  match find_trans (ft_transitions t) cur ev with Some tr => negb (t_internal tr) | None => false end.

Definition routed_events (t : ftable) (cur : string) : list string :=
  map t_ev (filter (fun tr => String.eqb (t_src tr) cur && negb (t_internal tr)) (ft_transitions t)).

Lemma routed_In t cur ev : routed t cur ev = true -> In ev (routed_events t cur).
Proof.
  unfold routed, routed_events. destruct (find_trans _ cur ev) as [tr|] eqn:E; [|discriminate].
  apply find_trans_In in E as (Hin & Hs & He). intros Hi. rewrite <- He. apply in_map.
  apply filter_In. rewrite Hs, String.eqb_refl, Hi. auto.
Qed.

(* the event whose transition is followed once a callback for ev has answered out *)
Definition route (ev out : string) : string := if String.eqb out "" || String.eqb ev out then ev else out.

(* the event's own callback (an event without a registered callback passes on what the before-mode
   auto event left) *)
Definition run_cb (t : ftable) (cb : callback) (ev : string) (dflt : cbres) (p : payload) (req : request) : cbres :=
  if mem_str ev (ft_callbacks t) then cb ev p req else dflt.

(* Do from the event's own callback onwards: c1 is the machine state and rs0 the reported state so far *)
Definition do_tail (t : ftable) (cb : callback) (req : request) (ev c1 rs0 : string) (main : cbres) : do_res :=
  match main with
  | CbPanic => DoPanic
  | CbErr p2 => DoRes c1 rs0 None true p2
  | CbOk out rd1 p2 =>
      match set_state t c1 (route ev out) with
      | None => DoRes c1 rs0 rd1 true p2
      | Some c2 =>
          match process_auto t cb 2 c2 p2 req with
          | AutoPanic => DoPanic
          | AutoNone => DoRes c2 c2 rd1 false p2
          | AutoRes _ data err c3 p3 => DoRes c3 c3 (or_data rd1 data) err p3
          end
      end
  end.

Lemma fsm_do_eq t cb cur p ev req :
  fsm_do t cb cur p ev req =
  if routed t cur ev then
    match process_auto t cb 1 cur p req with
    | AutoPanic => DoPanic
    | AutoRes _ data true c1 p1 => DoRes c1 c1 data true p1
    | AutoRes out data false c1 p1 => do_tail t cb req ev c1 c1 (run_cb t cb ev (CbOk out data p1) p1 req)
    | AutoNone => do_tail t cb req ev cur "" (run_cb t cb ev (CbOk "" None p) p req)
    end
  else DoRoute.
Proof.
  unfold fsm_do, routed, run_cb. destruct (find_trans _ _ _) as [tr|] eqn:E; [|reflexivity].
  destruct (find_trans_In _ _ _ _ E) as (_ & _ & <-).
  destruct (t_internal tr); [reflexivity|].
  destruct (process_auto t cb 1 cur p req) as [|o d [|] c1 p1|]; try reflexivity.
  - destruct (mem_str _ _); [destruct (cb _ _ _)|]; reflexivity.
  - destruct (mem_str _ _); [destruct (cb _ _ _)|]; reflexivity.
Qed.

(* an automatic event: its callback's answer decides the transition *)
Definition auto_fin (t : ftable) (cur aev : string) (r : cbres) : auto_res :=
  match r with
  | CbOk out data p' =>
      match set_state t cur (route aev out) with
      | Some dst => AutoRes out data false dst p'
      | None => AutoRes out data true cur p'
      end
  | CbErr p' => AutoRes "" None true cur p'
  | CbPanic => AutoPanic
  end.

Lemma process_auto_eq t cb m cur p req :
  process_auto t cb m cur p req =
  match find_auto (ft_auto t) cur m with
  | None => AutoNone
  | Some aev => auto_fin t cur aev (run_cb t cb aev (CbOk "" None p) p req)
  end.
Proof.
  unfold process_auto, run_cb. destruct (find_auto (ft_auto t) cur m) as [aev|]; [|reflexivity].
  destruct (mem_str aev (ft_callbacks t)); [destruct (cb aev p req)|]; reflexivity.
Qed.

(* one transition of the table; none or one *)
Definition hop (t : ftable) (s s' : string) : Prop :=
  exists tr, In tr (ft_transitions t) /\ t_src tr = s /\ t_dst tr = s'.
Definition hop0 (t : ftable) (s s' : string) : Prop := s' = s \/ hop t s s'.

Lemma set_state_hop t cur e dst : set_state t cur e = Some dst -> hop t cur dst.
Proof.
  unfold set_state. destruct (find_trans (ft_transitions t) cur e) as [tr|] eqn:E; [|discriminate].
  intros H. inversion H; subst. apply find_trans_In in E as (Hin & Hs & _).
  exists tr. auto.
Qed.

(* an automatic event moves the machine by at most one transition, by exactly one if it succeeds *)
Lemma process_auto_hops t cb m cur p req out data err cur' p' :
  process_auto t cb m cur p req = AutoRes out data err cur' p' ->
  hop0 t cur cur' /\ (err = false -> hop t cur cur').
Proof.
  rewrite process_auto_eq. destruct (find_auto (ft_auto t) cur m) as [aev|]; [|discriminate].
  unfold auto_fin. destruct (run_cb t cb aev _ p req) as [o d q|q|]; [| |discriminate].
  - destruct (set_state t cur (route aev o)) as [dst|] eqn:E; intros H; inversion H; subst.
    + apply set_state_hop in E. split; [right|intros _]; exact E.
    + split; [left; reflexivity|discriminate].
  - intros H; inversion H; subst. split; [left; reflexivity|discriminate].
Qed.

Lemma process_auto_ok_state t cb m cur p req out data cur' p' :
  process_auto t cb m cur p req = AutoRes out data false cur' p' -> hop t cur cur'.
Proof. intros H. apply process_auto_hops in H. tauto. Qed.

Definition hops3 (t : ftable) (s s' : string) : Prop :=
  exists a b, hop0 t s a /\ hop0 t a b /\ hop0 t b s'.

(* from the event's own callback onwards: at most the event's transition and the after-mode auto
   event's; a result without error reports the state the machine ends in *)
Lemma do_tail_res t cb req ev c1 rs0 main c' rs rd err p' :
  do_tail t cb req ev c1 rs0 main = DoRes c' rs rd err p' ->
  (exists c2, hop0 t c1 c2 /\ hop0 t c2 c') /\ (err = false -> rs = c').
Proof.
  unfold do_tail. destruct main as [out rd1 p2|p2|]; [| |discriminate].
  - destruct (set_state t c1 _) as [c2|] eqn:Es.
    + apply set_state_hop in Es.
      destruct (process_auto t cb 2 c2 p2 req) as [|o d e c3 p3|] eqn:Ea; [| |discriminate].
      * intros H; injection H as <- <- _ _ _. split; [|reflexivity].
        exists c2. split; [right; exact Es|left; reflexivity].
      * intros H; injection H as <- <- _ _ _. split; [|reflexivity].
        exists c2. split; [right; exact Es|apply (process_auto_hops _ _ _ _ _ _ _ _ _ _ _ Ea)].
    + intros H; injection H as <- _ _ <- _. split; [exists c1; split; left; reflexivity|discriminate].
  - intros H; injection H as <- _ _ <- _. split; [exists c1; split; left; reflexivity|discriminate].
Qed.

Theorem fsm_do_res t cb cur p ev req cur' rs rd err p' :
  fsm_do t cb cur p ev req = DoRes cur' rs rd err p' -> hops3 t cur cur' /\ (err = false -> rs = cur').
Proof.
  rewrite fsm_do_eq. destruct (routed t cur ev); [|discriminate].
  destruct (process_auto t cb 1 cur p req) as [|o1 d1 [|] c1 p1|] eqn:Eb; [| | |discriminate].
  - intros H. apply do_tail_res in H as [(c2 & H1 & H2) Hr]. split; [|exact Hr].
    exists cur, c2. split; [left; reflexivity|]. split; assumption.
  - apply process_auto_hops in Eb as [Eb _]. intros H; injection H as <- _ _ <- _.
    split; [|discriminate]. exists cur, cur. repeat split; [left; reflexivity|left; reflexivity|exact Eb].
  - apply process_auto_hops in Eb as [Eb _]. intros H. apply do_tail_res in H as [(c2 & H1 & H2) Hr]. split; [|exact Hr].
    exists c1, c2. repeat split; assumption.
Qed.

Definition closed_b (t : ftable) (S : list string) : bool :=
  forallb (fun tr => negb (mem_str (t_src tr) S) || mem_str (t_dst tr) S) (ft_transitions t).

Lemma mem_str_In x l : mem_str x l = true <-> In x l.
Proof.
  induction l as [|y r IH]; cbn [mem_str]; [split; [discriminate|contradiction]|].
  rewrite orb_true_iff, IH, String.eqb_eq. cbn. intuition congruence.
Qed.

Lemma mem_str_app x a b : mem_str x (a ++ b) = mem_str x a || mem_str x b.
Proof. induction a as [|y r IH]; cbn [mem_str app]; [reflexivity|]. rewrite IH, orb_assoc. reflexivity. Qed.

Lemma closed_hop0 t S s s' : closed_b t S = true -> In s S -> hop0 t s s' -> In s' S.
Proof.
  intros Hc Hs [->|(tr & Hin & Hsrc & Hdst)]; [exact Hs|].
  unfold closed_b in Hc. rewrite forallb_forall in Hc. specialize (Hc tr Hin).
  apply orb_true_iff in Hc as [Hc|Hc].
  - apply negb_true_iff in Hc. apply mem_str_In in Hs. congruence.
  - subst s'. apply mem_str_In. exact Hc.
Qed.

(* a set of states closed under the table's transitions is closed under Do *)
Theorem fsm_do_closed t cb S cur p ev req cur' rs rd err p' :
  closed_b t S = true -> In cur S ->
  fsm_do t cb cur p ev req = DoRes cur' rs rd err p' -> In cur' S.
Proof.
  intros Hc Hs H. apply fsm_do_res in H as [(a & b & H1 & H2 & H3) _].
  eapply closed_hop0; [exact Hc| |exact H3].
  eapply closed_hop0; [exact Hc| |exact H2].
  eapply closed_hop0; [exact Hc|exact Hs|exact H1].
Qed.
