(* C05 (2): a cancelled round (proposal or key generation) stays cancelled, whatever arrives. *)
From Coq Require Import String List ZArith Bool.
Require Import Fsm.Types Fsm.EngineFacts Fsm.Provider Fsm.Handover.
Import ListNotations.
Local Open Scope string_scope.

(* cancelled rounds in a final state of their machine (no transition leaves them) *)
Definition dead_states : list string :=
  [ "state_sig_proposal_canceled_by_participant"; "state_sig_proposal_canceled_by_timeout";
    "state_dkg_commits_await_canceled_by_timeout"; "state_dkg_deals_await_canceled_by_timeout";
    "state_dkg_responses_sending_canceled_by_timeout"; "state_dkg_master_key_await_canceled_by_timeout" ].
(* cancelled by a reported error: owned by the DKG machine, only error reports are still routed *)
Definition error_states : list string :=
  [ "state_dkg_commits_await_canceled_by_error"; "state_dkg_deals_await_canceled_by_error";
    "state_dkg_responses_await_canceled_by_error"; "state_dkg_master_key_await_canceled_by_error" ].
Definition cancelled_states : list string := dead_states ++ error_states.

(* every cancelled state is owned by a machine whose table never leaves it *)
Lemma cancelled_states_owner :
  forallb (fun s => match machine_by_state s with
                    | Some t => closed_b t [s] && copy_with_state_ok t s && negb (String.eqb s "")
                    | None => false end) cancelled_states = true.
Proof. vm_compute. reflexivity. Qed.

Lemma do_on_cancelled s d ev req d' rs rd :
  In s cancelled_states -> d_state d = s -> do_on_dump d ev req = SOk d' rs rd -> d_state d' = s.
Proof.
  intros Hin <- H. destruct d as [s p].
  pose proof cancelled_states_owner as Ho. rewrite forallb_forall in Ho. specialize (Ho s Hin).
  destruct (machine_by_state s) as [t|] eqn:Em; [|discriminate].
  apply andb_prop in Ho as [Ho Hne]. apply andb_prop in Ho as [Hclosed Hcopy].
  apply negb_true_iff, String.eqb_neq in Hne.
  destruct (do_on_dump_closed t [s] s p ev req d' rs rd (conj Em (conj Hcopy Hne)) Hclosed (or_introl eq_refl) H) as [<-|[]].
  reflexivity.
Qed.

Fixpoint run_round (d : dump) (tr : list (Z * string * request)) : dump :=
  match tr with
  | [] => d
  | (now, ev, req) :: r =>
      match round_step now d ev req with
      | SOk d' _ _ => run_round d' r
      | _ => run_round d r
      end
  end.

(* what every FSM call preserves, every history preserves *)
Lemma run_round_preserves (P : dump -> Prop) :
  (forall d ev req d' rs rd, P d -> do_on_dump d ev req = SOk d' rs rd -> P d') ->
  forall tr d, P d -> P (run_round d tr).
Proof.
  intros Hstep. induction tr as [|[[now ev] req] tr IH]; intros d Hd; [exact Hd|].
  cbn [run_round]. destruct (round_step now d ev req) as [d' rs rd| |] eqn:E; try (apply IH; exact Hd).
  apply IH. exact (round_step_preserves P Hstep _ _ _ _ _ _ _ Hd E).
Qed.

(* every history: once cancelled, no continuation is ever signing-ready *)
Theorem cancel_final d tr :
  In (d_state d) cancelled_states -> d_state (run_round d tr) = d_state d.
Proof.
  intros Hin. apply (run_round_preserves (fun d' => d_state d' = d_state d)); [|reflexivity].
  intros d0 ev req d1 rs rd. apply do_on_cancelled. exact Hin.
Qed.
