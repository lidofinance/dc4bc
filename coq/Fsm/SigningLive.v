(* C07: a batch answered correctly by t participants is collected, whatever else arrives in
   between; late answers are refused; the next proposal is accepted.  All statements are about
   round_step / do_on_dump, the functions the node model drives the signing FSM with (compared
   with the real FSM on every run), and about the regenerated signing table. *)
From Coq Require Import String List ZArith Bool Lia.
Require Import Fsm.Types Fsm.Engine Fsm.EngineFacts Fsm.Actions Fsm.Provider Fsm.Handover Fsm.QuorumLemmas
  Fsm.SigningFacts.
Require Gen.Tables.
Import ListNotations.
Local Open Scope string_scope.
Local Open Scope Z_scope.

Definition st_await := "state_signing_await_partial_signs".
Definition st_idle := "stage_signing_idle".
Definition st_cancel_err := "state_signing_partial_signs_await_cancelled_by_error".
Definition mkd (s : string) (p : payload) : dump := {| d_state := s; d_payload := p |}.

(* the engine on the regenerated signing table: which events the states of a batch route, to which
   callback, followed by which validation (closed look-ups, by conversion) *)
Local Notation sgn := Gen.Tables.signing_table.

Lemma owns_signing s : s = st_idle \/ s = st_await \/ s = st_partial_collected -> owns sgn s.
Proof. intros [->|[->| ->]]; (split; [reflexivity|split; [reflexivity|discriminate]]). Qed.

Definition answer_event (ev : string) : Prop := ev = ev_sgn_partial \/ ev = ev_sgn_error.

(* in the awaiting state only the two answer events are routed: each runs its callback and loops *)
Lemma await_routed : routed_events sgn st_await = [ev_sgn_error; ev_sgn_partial].
Proof. reflexivity. Qed.

Lemma await_handles ev : answer_event ev -> handles sgn st_await ev /\ set_state sgn st_await ev = Some st_await.
Proof.
  intros [->| ->]; (split; [|reflexivity]); (split; [apply owns_signing; auto|]); repeat apply conj; reflexivity.
Qed.

Lemma idle_handles_start : handles sgn st_idle ev_sgn_start.
Proof. split; [apply owns_signing; auto|]. repeat apply conj; reflexivity. Qed.

(* an answer the callback accepts is followed by the validation attached to the awaiting state: the
   round moves along the transition that the validation's answer names *)
Lemma await_accepted {ev p req p' out rd p'' s'} :
  answer_event ev -> cb_signing ev p req = CbOk "" None p' ->
  action_sgn_validate ev_sgn_validate p' req = CbOk out rd p'' ->
  set_state sgn st_await (route ev_sgn_validate out) = Some s' ->
  do_on_dump (mkd st_await p) ev req = SOk (mkd s' p'') s' rd.
Proof.
  intros Hev H1 H2 Hs. destruct (await_handles ev Hev) as [Hh Hloop].
  pose proof (call_validated sgn st_await ev p req "" None p' st_await ev_sgn_validate out rd p'' s'
                             Hh H1 Hloop eq_refl eq_refl H2 Hs) as H.
  (* `or_data None rd` reduces once rd is a constructor *)
  destruct rd; exact H.
Qed.

Lemma do_restart_collected p now :
  do_on_dump (mkd st_partial_collected p) ev_sgn_restart (RDefault now) = SOk (mkd st_idle p) st_idle None.
Proof. unfold mkd. rewrite (do_on_dump_owned sgn) by (apply owns_signing; auto). reflexivity. Qed.

(* the payload of a round that AWAITS answers to batch b: a signing section g for b, a proposal
   section (the answer callbacks touch its UpdatedAt and panic without it), the deadline not armed *)
Definition Aw (p : payload) (g : sgn_conf) (b : tok) : Prop :=
  p_sgn p = Some g /\ gc_batch g = b /\ b <> 0%N /\ p_sig p <> None /\
  expired (gc_expires g) (gc_updated g) = false.

(* a well-formed partial-signature request of participant i for batch b *)
Definition good_req (b : tok) (i : Z) (req : request) : Prop :=
  exists signs created, req = RPartial b i signs created /\ signs <> [] /\ signs_valid signs = true /\
                        is_zero_time created = false /\ 0 <= i.

Definition confirm_part (part : sgn_part) (signs : list (tok * tok)) (created : Z) : sgn_part :=
  {| gp_name := gp_name part; gp_status := SgnConfirmed;
     gp_signs := fold_left (fun acc s => tput acc (fst s) (snd s)) signs (gp_signs part);
     gp_error := gp_error part; gp_updated := created |}.

(* a well-formed answer for the batch from a participant still awaited is not refused; what else the
   callback can answer is said by `answer_outcomes` *)
Lemma good_partial_accepted ev p g b i req part :
  Aw p g b -> good_req b i req -> qget (gc_quorum g) i = Some part -> gp_status part = SgnAwait ->
  action_sgn_partial ev p req <> CbErr p.
Proof.
  intros (Hg & Hb & Hb0 & Hs & Hl) (signs & created & -> & Hne & Hv & Hz & Hi) Hq Hst.
  unfold action_sgn_partial.
  destruct (N.eqb_spec b 0) as [|_]; [contradiction|]. rewrite Hz.
  destruct (Z.ltb_spec i 0) as [|_]; [lia|]. rewrite Hv. cbn [orb negb].
  destruct signs as [|s0 sr]; [contradiction|].
  rewrite Hg, <- Hb, N.eqb_refl. cbn [negb]. rewrite Hq, Hst. cbn [N.eqb negb].
  unfold set_sig_updated, set_sgn. cbn [p_sig]. destruct (p_sig p); [discriminate|contradiction].
Qed.

Definition error_part (part : sgn_part) (e : tok) (created : Z) : sgn_part :=
  {| gp_name := gp_name part; gp_status := SgnError; gp_signs := gp_signs part;
     gp_error := Some e; gp_updated := created |}.

(* an accepted answer, whichever of the two events carried it: participant pid, still awaited, gets
   the entry part' *)
Definition answer (b : tok) (ev : string) (req : request) (pid : Z) (part part' : sgn_part) : Prop :=
  (ev = ev_sgn_partial /\ exists signs created,
     req = RPartial b pid signs created /\ part' = confirm_part part signs created) \/
  (ev = ev_sgn_error /\ exists e created bb,
     req = RSigError pid (Some e) created bb /\ (bb = 0%N \/ bb = b) /\ part' = error_part part e created).

(* what both answer callbacks do once they accept: participant pid gets the entry part' and the
   proposal's UpdatedAt is touched (a payload without a proposal panics there) *)
Definition book (p : payload) (g : sgn_conf) (pid : Z) (part' : sgn_part) (created : Z) : cbres :=
  match set_sig_updated (set_sgn p {| gc_batch := gc_batch g; gc_initiator := gc_initiator g;
                                      gc_quorum := qset (gc_quorum g) pid part'; gc_src := gc_src g;
                                      gc_created := gc_created g; gc_updated := gc_updated g;
                                      gc_expires := gc_expires g |}) created with
  | inl r => r
  | inr p' => CbOk "" None p'
  end.

Lemma book_aw p g b pid part' created : Aw p g b ->
  exists p' g', book p g pid part' created = CbOk "" None p' /\ Aw p' g' b /\
    gc_quorum g' = qset (gc_quorum g) pid part' /\ gc_src g' = gc_src g /\
    p_threshold p' = p_threshold p /\ p_dkg p' = p_dkg p.
Proof.
  intros (Hg & Hb & Hb0 & Hs & Hl). unfold book, set_sig_updated, set_sgn. cbn [p_sig].
  destruct (p_sig p); [|contradiction]. do 2 eexists. split; [reflexivity|].
  unfold Aw. cbn [p_sgn p_sig p_threshold p_dkg gc_batch gc_expires gc_updated gc_quorum gc_src].
  repeat split; try assumption. discriminate.
Qed.

(* whatever an answer event carries, it is either refused or books one participant that was still
   awaited, for the batch being signed *)
Lemma answer_outcomes ev p g b req :
  Aw p g b -> answer_event ev ->
  cb_signing ev p req = CbErr p \/
  exists pid part part' created,
    answer b ev req pid part part' /\ qget (gc_quorum g) pid = Some part /\
    cb_signing ev p req = book p g pid part' created.
Proof.
  (* each callback is walked along its tests: every refusing leaf returns `CbErr p`, the accepting
     leaf is `book` *)
  intros (Hg & Hb & _) [->| ->].
  - change (cb_signing ev_sgn_partial p req) with (action_sgn_partial ev_sgn_partial p req). unfold action_sgn_partial.
    destruct req as [| | | | | | | |batch pid signs created|]; try (left; reflexivity).
    destruct (_ || _); [left; reflexivity|]. rewrite Hg.
    destruct (N.eqb_spec batch (gc_batch g)) as [Eb|Eb]; cbn [negb]; [|left; reflexivity].
    destruct (qget (gc_quorum g) pid) as [part|] eqn:Eq; [|left; reflexivity].
    destruct (N.eqb (gp_status part) SgnAwait); cbn [negb]; [|left; reflexivity].
    right. exists pid, part, (confirm_part part signs created), created.
    split; [left; split; [reflexivity|]; exists signs, created; rewrite Eb, Hb; split; reflexivity|].
    split; [exact Eq|reflexivity].
  - change (cb_signing ev_sgn_error p req) with (action_sgn_error ev_sgn_error p req). unfold action_sgn_error.
    destruct req as [| | | | | |pid [e|] created bb| | |]; try (left; reflexivity).
    destruct (_ || _); [left; reflexivity|]. rewrite Hg.
    destruct (qget (gc_quorum g) pid) as [part|] eqn:Eq; [|left; reflexivity].
    assert (Hbb : negb (N.eqb bb 0) && negb (N.eqb bb (gc_batch g)) = false -> bb = 0%N \/ bb = b).
    { rewrite Hb. destruct (N.eqb_spec bb 0); [auto|]. destruct (N.eqb_spec bb b); [auto|discriminate]. }
    destruct (_ && _); [left; reflexivity|]. specialize (Hbb eq_refl).
    destruct (N.eqb (gp_status part) SgnAwait); cbn [negb]; [|left; reflexivity].
    right. exists pid, part, (error_part part e created), created.
    split; [right; split; [reflexivity|]; exists e, created, bb; repeat split; assumption|].
    split; [exact Eq|reflexivity].
Qed.

(* the node's round step on a collecting answer: none of the two key-generation hand-overs, then the
   restart (the three comparisons of state names are closed, hence the `change`s) *)
Lemma round_step_collects now d ev req p'' resp :
  do_on_dump d ev req = SOk (mkd st_partial_collected p'') st_partial_collected (Some resp) ->
  round_step now d ev req = SOk (mkd st_idle p'') st_partial_collected (Some resp).
Proof.
  intros H. unfold round_step. rewrite H.
  change (String.eqb st_partial_collected st_collected) with false. cbv beta iota zeta.
  change (String.eqb st_partial_collected st_master_collected) with false. cbv beta iota zeta.
  change (String.eqb st_partial_collected st_partial_collected) with true. cbv beta iota zeta.
  rewrite do_restart_collected. reflexivity.
Qed.

(* the one analysis of an answer event in the awaiting state.  Its callback refuses it; or it books a
   participant that was still awaited, and the validation counts: too many failures (cancelled), or
   still short of the threshold (the round stays), or collected (the node restarts the round; the
   deadline stays unarmed) *)
Lemma answer_step now ev p g b req :
  Aw p g b -> answer_event ev ->
  (cb_signing ev p req = CbErr p /\ round_step now (mkd st_await p) ev req = SRej) \/
  exists pid part part' p' g',
    answer b ev req pid part part' /\ qget (gc_quorum g) pid = Some part /\
    Aw p' g' b /\ gc_quorum g' = qset (gc_quorum g) pid part' /\
    p_threshold p' = p_threshold p /\ p_dkg p' = p_dkg p /\
    ((Z.of_nat (length (gc_quorum g')) - p_threshold p' < count_status SgnError (gc_quorum g') /\
      round_step now (mkd st_await p) ev req = SOk (mkd st_cancel_err p') st_cancel_err None) \/
     (count_status SgnConfirmed (gc_quorum g') < p_threshold p' /\
      round_step now (mkd st_await p) ev req = SOk (mkd st_await p') st_await None) \/
     (exists g'' entries,
        round_step now (mkd st_await p) ev req
        = SOk (mkd st_idle (set_sgn p' g'')) st_partial_collected (Some (RespSigningProcess b (gc_src g) entries)) /\
        expired (gc_expires g'') (gc_updated g'') = false)).
Proof.
  intros Haw Hev.
  destruct (answer_outcomes ev p g b req Haw Hev) as [Herr|(pid & part & part' & created & Hans & Hq & Hcb)].
  - left. split; [exact Herr|]. apply round_step_rej.
    exact (call_refused sgn st_await ev p req p (proj1 (await_handles ev Hev)) Herr).
  - right. destruct (book_aw p g b pid part' created Haw) as (p' & g' & Hok & Haw' & Hq' & Hsrc & Hthr & Hdkg).
    rewrite <- Hcb in Hok. exists pid, part, part', p', g'.
    split; [exact Hans|]. split; [exact Hq|]. split; [exact Haw'|]. split; [exact Hq'|].
    split; [exact Hthr|]. split; [exact Hdkg|].
    pose proof Haw' as (Hg' & Hb' & _ & _ & Hl').
    destruct (sgn_validate_cases ev_sgn_validate p' req g' Hg' Hl')
      as [(Hcancel & Hval)|[(_ & Hc' & Hval)|(_ & _ & entries & g'' & Hval & _ & He'' & Hu'')]].
    + left. split; [exact Hcancel|].
      apply round_step_single; [exact (await_accepted Hev Hok Hval eq_refl)|reflexivity].
    + right. left. split; [exact Hc'|].
      apply round_step_single; [exact (await_accepted Hev Hok Hval eq_refl)|reflexivity].
    + right. right. exists g'', entries. rewrite Hb', Hsrc in Hval. split; [|congruence].
      apply round_step_collects. exact (await_accepted Hev Hok Hval eq_refl).
Qed.

(* what a node does with a list of inputs for the round: the batches it collects, in order *)
Definition input := (string * request)%type.
Fixpoint collected (now : Z) (d : dump) (l : list input) : list tok :=
  match l with
  | [] => []
  | x :: r =>
      match round_step now d (fst x) (snd x) with
      | SOk d' rs (Some (RespSigningProcess b _ _)) =>
          (if String.eqb rs st_partial_collected then [b] else []) ++ collected now d' r
      | SOk d' _ _ => collected now d' r
      | _ => collected now d r
      end
  end.

Lemma collected_rej now d ev req r b :
  round_step now d ev req = SRej -> In b (collected now d r) -> In b (collected now d ((ev, req) :: r)).
Proof. intros H. cbn [collected fst snd]. rewrite H. auto. Qed.
Lemma collected_moves now d ev req r d' rs rd b :
  round_step now d ev req = SOk d' rs rd -> String.eqb rs st_partial_collected = false ->
  In b (collected now d' r) -> In b (collected now d ((ev, req) :: r)).
Proof. intros H E. cbn [collected fst snd]. rewrite H, E. destruct rd as [[]|]; auto. Qed.
Lemma collected_collects now d ev req r d' b src entries :
  round_step now d ev req = SOk d' st_partial_collected (Some (RespSigningProcess b src entries)) ->
  In b (collected now d ((ev, req) :: r)).
Proof. intros H. cbn [collected fst snd]. rewrite H. left. reflexivity. Qed.

(* the participants in H are honest for batch b: nothing in the input list speaks for them except
   well-formed answers to b (their late answers to other batches may be there too) *)
Definition honest_only (b : tok) (H : list Z) (x : input) : Prop :=
  forall i, In i H ->
    (fst x = ev_sgn_error -> forall e c bb, snd x = RSigError i e c bb -> bb <> 0%N /\ bb <> b) /\
    (fst x = ev_sgn_partial -> forall signs c, snd x = RPartial b i signs c -> good_req b i (snd x)).

Lemma honest_only_other b H ev req : ev <> ev_sgn_error -> ev <> ev_sgn_partial -> honest_only b H (ev, req).
Proof. intros H1 H2 j _. split; intros E; contradiction. Qed.
Lemma honest_only_partial b H b' i signs c :
  (b' = b -> In i H -> good_req b i (RPartial b i signs c)) -> honest_only b H (ev_sgn_partial, RPartial b' i signs c).
Proof.
  intros Hg j Hj. split; [discriminate|]. cbn [fst snd]. intros _ s2 c2 Heq. inversion Heq; subst.
  exact (Hg eq_refl Hj).
Qed.
Lemma honest_only_error b H i e c bb :
  (In i H -> bb <> 0%N /\ bb <> b) -> honest_only b H (ev_sgn_error, RSigError i e c bb).
Proof.
  intros Hb j Hj. split; [|discriminate]. cbn [fst snd]. intros _ e2 c2 bb2 Heq. inversion Heq; subst.
  exact (Hb Hj).
Qed.

(* the invariant of `batch_collects` for an honest member i: confirmed already, or still awaited with
   its good answer among the inputs to come *)
Definition h_status (b : tok) (g : sgn_conf) (l : list input) (i : Z) : Prop :=
  exists part, qget (gc_quorum g) i = Some part /\
    (gp_status part = SgnConfirmed \/
     (gp_status part = SgnAwait /\ exists req, In (ev_sgn_partial, req) l /\ good_req b i req)).

Lemma h_status_no_error b g l H : (forall i, In i H -> h_status b g l i) ->
  forall i, In i H -> exists a, qget (gc_quorum g) i = Some a /\ N.eqb (gp_status a) SgnError = false.
Proof.
  intros Hall i Hi. destruct (Hall i Hi) as (part & Hq & [Hc|[Ha _]]); exists part; (split; [exact Hq|]).
  - rewrite Hc. reflexivity.
  - rewrite Ha. reflexivity.
Qed.

(* an input that is not consumed as the awaited answer of member i leaves i's witness in the rest *)
Lemma h_status_skip b g ev req r i :
  (forall part rq, qget (gc_quorum g) i = Some part -> gp_status part = SgnAwait -> good_req b i rq ->
                   (ev, req) <> (ev_sgn_partial, rq)) ->
  h_status b g ((ev, req) :: r) i -> h_status b g r i.
Proof.
  intros Hne (part & Hq & [Hcf|[Ha (rq & Hin & Hgood)]]); exists part; (split; [exact Hq|]); [left; exact Hcf|].
  right. split; [exact Ha|]. exists rq. split; [|exact Hgood].
  destruct Hin as [Heq|Hin]; [|exact Hin]. exfalso. exact (Hne part rq Hq Ha Hgood Heq).
Qed.

(* an accepted answer: its sender, if a member of H, is confirmed by it (nothing else speaks for a
   member); every other member keeps entry and witness *)
Lemma h_status_answer b H g g' ev req r pid part part' :
  honest_only b H (ev, req) -> qget (gc_quorum g) pid = Some part ->
  gc_quorum g' = qset (gc_quorum g) pid part' -> answer b ev req pid part part' ->
  forall i, In i H -> h_status b g ((ev, req) :: r) i -> h_status b g' r i.
Proof.
  intros Hx Hq Hq' Hans i Hi Hsti. destruct (Z.eq_dec i pid) as [->|Hne].
  - destruct Hans as [(_ & signs & created & _ & ->)|(Hev & e & created & bb & Hreq & Hbb & _)].
    + exists (confirm_part part signs created). rewrite Hq'.
      split; [exact (qget_qset_same _ _ _ _ Hq)|left; reflexivity].
    + exfalso. destruct (Hx pid Hi) as (He & _).
      destruct (He Hev (Some e) created bb Hreq) as [H0 Hb']. destruct Hbb; contradiction.
  - apply (h_status_skip b g' ev req r i).
    + intros parti rq _ _ (s2 & c2 & -> & _) Heq. inversion Heq as [[Hev Hreq]].
      destruct Hans as [(_ & signs & created & Hreq' & _)|(Hev' & _)].
      * rewrite Hreq' in Hreq. inversion Hreq. congruence.
      * rewrite Hev' in Hev. discriminate Hev.
    + destruct Hsti as (parti & Hqi & Hsti). exists parti. rewrite Hq', (qget_qset_other _ _ _ _ Hne). auto.
Qed.

Theorem batch_collects now b H t : forall (l : list input) p g,
  Aw p g b -> p_threshold p = t -> NoDup H -> t <= Z.of_nat (length H) ->
  (forall i, In i H -> h_status b g l i) ->
  count_status SgnConfirmed (gc_quorum g) < t ->
  Forall (honest_only b H) l ->
  In b (collected now (mkd st_await p) l).
Proof.
  induction l as [|[ev req] r IH]; intros p g Haw Ht Hnd HtH Hst Hc Hhon.
  - (* nothing left: every member of H is confirmed, so the threshold had been reached *)
    exfalso.
    assert (Hge : (length H <= length (filter (fun x => N.eqb (gp_status (snd x)) SgnConfirmed) (gc_quorum g)))%nat).
    { apply (count_ge (fun a => N.eqb (gp_status a) SgnConfirmed)); [exact Hnd|].
      intros i Hi. destruct (Hst i Hi) as (part & Hq & [Hcf|[_ (req & [] & _)]]). exists part. rewrite Hcf. auto. }
    unfold count_status in Hc. lia.
  - apply Forall_cons_iff in Hhon as [Hx Hr].
    (* an input the round refuses changes nothing, provided it was no member's awaited answer *)
    assert (Hrej : round_step now (mkd st_await p) ev req = SRej ->
                   (forall i, In i H -> h_status b g r i) ->
                   In b (collected now (mkd st_await p) ((ev, req) :: r))).
    { intros Hdo Hst'. eapply collected_rej; [exact Hdo|]. exact (IH p g Haw Ht Hnd HtH Hst' Hc Hr). }
    destruct (routed sgn st_await ev) eqn:Er.
    + assert (Hev : answer_event ev).
      { apply routed_In in Er. rewrite await_routed in Er. destruct Er as [<-|[<-|[]]]; [right|left]; reflexivity. }
      destruct (answer_step now ev p g b req Haw Hev)
        as [[Herr Hdo]|(pid & part & part' & p' & g' & Hans & Hq & Haw' & Hq' & Hthr & _ & Hcases)].
      * apply Hrej; [exact Hdo|].
        intros i Hi. apply (h_status_skip b g ev req r i); [|exact (Hst i Hi)].
        intros parti rq Hqi Hai Hgood Heq. inversion Heq; subst ev req.
        exact (good_partial_accepted ev_sgn_partial p g b i rq parti Haw Hgood Hqi Hai Herr).
      * pose proof (fun i Hi => h_status_answer b H g g' ev req r pid part part' Hx Hq Hq' Hans i Hi (Hst i Hi)) as Hst'.
        destruct Hcases as [(Hcancel & _)|[(Hc' & Hstep)|(g'' & entries & Hstep & _)]].
        -- (* H alone keeps the failures under the bound *)
           exfalso. unfold count_status in Hcancel.
           pose proof (count_le _ (gc_quorum g') H Hnd (h_status_no_error b g' r H Hst')) as Hb. cbv beta in Hb. lia.
        -- eapply collected_moves; [exact Hstep|reflexivity|].
           apply (IH p' g' Haw'); try assumption; congruence.
        -- eapply collected_collects, Hstep.
    + apply Hrej; [apply (round_step_unrouted sgn); [apply owns_signing; auto|exact Er]|].
      intros i Hi. apply (h_status_skip b g ev req r i); [|exact (Hst i Hi)].
      intros parti rq _ _ _ Heq. inversion Heq; subst ev. discriminate Er.
Qed.

(* proposals: idle accepts a well-formed proposal and awaits every participant *)
Lemma do_start_accepts p req p' resp :
  action_sgn_start ev_sgn_start p req = CbOk ev_sgn_start (Some resp) p' ->
  action_sgn_validate ev_sgn_validate p' req = CbOk "" None p' ->
  do_on_dump (mkd st_idle p) ev_sgn_start req = SOk (mkd st_await p') st_await (Some resp).
Proof.
  intros H1 H2.
  exact (call_validated sgn st_idle ev_sgn_start p req ev_sgn_start (Some resp) p' st_await ev_sgn_validate "" None p' st_await
                        idle_handles_start H1 eq_refl eq_refl eq_refl H2 eq_refl).
Qed.

(* a payload that can sign: key generation finished, signing initialised, deadline not armed *)
Definition Ready (p : payload) (d : dkg_conf) (t : Z) : Prop :=
  p_dkg p = Some d /\ p_threshold p = t /\ p_sig p <> None /\
  exists g, p_sgn p = Some g /\ expired (gc_expires g) (gc_updated g) = false.

Lemma aw_ready p g b d t : Aw p g b -> p_dkg p = Some d -> p_threshold p = t -> Ready p d t.
Proof. intros (Hg & _ & _ & Hs & Hl) Hd Ht. repeat split; try assumption. exists g. auto. Qed.

Lemma ready_set_sgn p d t g :
  Ready p d t -> expired (gc_expires g) (gc_updated g) = false -> Ready (set_sgn p g) d t.
Proof. intros (Hd & Ht & Hs & _) Hl. repeat split; try assumption. exists g. auto. Qed.

Definition start_quorum (d : dkg_conf) (created : Z) : list (Z * sgn_part) :=
  qmap (fun x => {| gp_name := dp_name x; gp_status := SgnAwait; gp_signs := [];
                    gp_error := None; gp_updated := created |}) (dc_quorum d).

Lemma count_start_quorum d created s : s <> SgnAwait -> count_status s (start_quorum d created) = 0.
Proof.
  intros Hs. unfold count_status, start_quorum, qmap.
  induction (dc_quorum d) as [|[j a] r IH]; [reflexivity|].
  cbn [map filter snd gp_status]. destruct (N.eqb_spec SgnAwait s); [congruence|]. exact IH.
Qed.

(* a freshly opened batch waits: nobody has failed, nobody has confirmed *)
Lemma start_quorum_waits ev p req g d created :
  p_sgn p = Some g -> expired (gc_expires g) (gc_updated g) = false -> gc_quorum g = start_quorum d created ->
  0 < p_threshold p <= Z.of_nat (length (dc_quorum d)) ->
  action_sgn_validate ev p req = CbOk "" None p.
Proof.
  intros Hg Hl Hq Ht.
  assert (Hlen : length (start_quorum d created) = length (dc_quorum d)) by apply map_length.
  destruct (sgn_validate_cases ev p req g Hg Hl) as [(Hfail & _)|[(_ & _ & Hval)|(_ & Hconf & _)]].
  - exfalso. rewrite Hq, Hlen, count_start_quorum in Hfail by discriminate. lia.
  - exact Hval.
  - exfalso. rewrite Hq, count_start_quorum in Hconf by discriminate. lia.
Qed.

(* a well-formed proposal at idle: the start callback opens the section g' with everybody awaited, the
   validation finds nobody failed and nobody confirmed, so the round waits *)
Theorem start_opens_batch now p d t batch pid created tasks src :
  Ready p d t -> 0 < t -> t <= Z.of_nat (length (dc_quorum d)) ->
  batch <> 0%N -> 0 <= pid -> is_zero_time created = false -> tasks_valid tasks = true ->
  exists p' g' resp,
    round_step now (mkd st_idle p) ev_sgn_start (RStart batch pid created tasks src) = SOk (mkd st_await p') st_await (Some resp) /\
    Aw p' g' batch /\ Ready p' d t /\ gc_quorum g' = start_quorum d created /\ gc_src g' = src.
Proof.
  intros Hr Hpos Hn Hb Hpid Hz Hv. pose proof Hr as (Hd & Ht & Hs & g & Hg & Hl).
  pose (g' := {| gc_batch := batch; gc_initiator := pid; gc_quorum := start_quorum d created; gc_src := src;
                 gc_created := created; gc_updated := gc_updated g; gc_expires := gc_expires g |}).
  assert (Hstart : exists resp, action_sgn_start ev_sgn_start p (RStart batch pid created tasks src)
                                = CbOk ev_sgn_start (Some resp) (set_sgn p g')).
  { unfold action_sgn_start. destruct (N.eqb_spec batch 0); [contradiction|].
    (* a valid task list names a message, so it is not empty *)
    destruct tasks; [discriminate Hv|].
    destruct (Z.ltb_spec pid 0) as [Hlt|_]; [exfalso; clear -Hlt Hpid; lia|]. rewrite Hz, Hv. cbn [orb negb]. rewrite Hg, Hd.
    eexists. reflexivity. }
  destruct Hstart as (resp & Hstart).
  exists (set_sgn p g'), g', resp. split.
  - apply round_step_single; [|reflexivity]. apply (do_start_accepts _ _ _ _ Hstart).
    apply (start_quorum_waits _ (set_sgn p g') _ g' d created eq_refl Hl eq_refl). cbn [set_sgn p_threshold]. lia.
  - split; [repeat split; assumption|]. split; [exact (ready_set_sgn p d t g' Hr Hl)|split; reflexivity].
Qed.

(* from the proposal to the collection: `start_opens_batch` establishes the invariant of `batch_collects` *)
Theorem proposed_batch_collects now p d t H batch pid created tasks src (l : list input) :
  Ready p d t -> 0 < t -> t <= Z.of_nat (length (dc_quorum d)) ->
  batch <> 0%N -> 0 <= pid -> is_zero_time created = false -> tasks_valid tasks = true ->
  NoDup H -> t <= Z.of_nat (length H) ->
  (forall i, In i H -> (exists a, qget (dc_quorum d) i = Some a) /\
                       exists req, In (ev_sgn_partial, req) l /\ good_req batch i req) ->
  Forall (honest_only batch H) l ->
  In batch (collected now (mkd st_idle p) ((ev_sgn_start, RStart batch pid created tasks src) :: l)).
Proof.
  intros Hr Hpos Hn Hb Hpid Hz Hv Hnd HtH Hmem Hhon.
  destruct (start_opens_batch now p d t batch pid created tasks src Hr Hpos Hn Hb Hpid Hz Hv)
    as (p' & g' & resp & Hstep & Haw & (_ & Ht' & _) & Hq & _).
  eapply collected_moves; [exact Hstep|reflexivity|].
  apply (batch_collects now batch H t l p' g' Haw Ht' Hnd HtH).
  - intros i Hi. destruct (Hmem i Hi) as ((a & Ha) & req & Hin & Hgood).
    eexists. rewrite Hq. unfold start_quorum. rewrite qget_qmap, Ha. cbn [option_map]. split; [reflexivity|].
    right. split; [reflexivity|]. exists req. auto.
  - rewrite Hq, count_start_quorum by discriminate. exact Hpos.
  - exact Hhon.
Qed.

(* an answer event that carries no answer to the batch being signed is refused (nothing is persisted) *)
Theorem foreign_answer_refused now ev p g b req :
  Aw p g b -> answer_event ev -> (forall pid part part', ~ answer b ev req pid part part') ->
  round_step now (mkd st_await p) ev req = SRej.
Proof.
  intros Haw Hev Hno.
  destruct (answer_step now ev p g b req Haw Hev) as [[_ Hrej]|(pid & part & part' & _ & _ & Hans & _)].
  - exact Hrej.
  - destruct (Hno _ _ _ Hans).
Qed.

(* the next batch: the collecting step leaves a payload that can sign again *)
Theorem collecting_answer_leaves_ready now p g b d t pid signs created part :
  Aw p g b -> Ready p d t ->
  qget (gc_quorum g) pid = Some part -> gp_status part = SgnAwait -> good_req b pid (RPartial b pid signs created) ->
  t <= count_status SgnConfirmed (qset (gc_quorum g) pid (confirm_part part signs created)) ->
  count_status SgnError (qset (gc_quorum g) pid (confirm_part part signs created)) <= Z.of_nat (length (gc_quorum g)) - t ->
  exists p'' entries,
    round_step now (mkd st_await p) ev_sgn_partial (RPartial b pid signs created)
    = SOk (mkd st_idle p'') st_partial_collected (Some (RespSigningProcess b (gc_src g) entries)) /\
    Ready p'' d t.
Proof.
  intros Haw (Hd & Ht & _) Hq Hsa Hgood Hc Hf.
  destruct (answer_step now ev_sgn_partial p g b (RPartial b pid signs created) Haw (or_introl eq_refl))
    as [[Herr _]|(pid0 & part0 & part' & p' & g' & Hans & Hq0 & Haw' & Hq' & Hthr & Hdkg & Hcases)].
  - exfalso. exact (good_partial_accepted _ _ _ _ _ _ _ Haw Hgood Hq Hsa Herr).
  - (* the answer booked is this one *)
    destruct Hans as [(_ & s0 & c0 & Heq & ->)|(He & _)]; [|discriminate He].
    inversion Heq; subst pid0 s0 c0. rewrite Hq in Hq0. inversion Hq0; subst part0.
    rewrite Hq', Hthr, Ht, qset_length in Hcases.
    destruct Hcases as [(Hcancel & _)|[(Hc' & _)|(g'' & entries & Hstep & Hl'')]]; [exfalso; lia|exfalso; lia|].
    exists (set_sgn p' g''), entries. split; [exact Hstep|].
    apply ready_set_sgn; [apply (aw_ready p' g' b d t Haw'); congruence|exact Hl''].
Qed.

(* non-vacuity: three participants, threshold two; participants 0 and 2 are honest *)
Definition ex_dpart (n : tok) : dkg_part :=
  {| dp_name := n; dp_dkgpub := 1%N; dp_commit := 1%N; dp_deal := 1%N; dp_response := 1%N; dp_master := 1%N;
     dp_status := dkg_confirmed 3; dp_error := None; dp_updated := 5 |}.
Definition ex_dkg : dkg_conf :=
  {| dc_quorum := [(0, ex_dpart 10%N); (1, ex_dpart 11%N); (2, ex_dpart 12%N)]; dc_created := 1; dc_updated := 5;
     dc_expires := 700000; dc_pubpoly := 3000001%N |}.
Definition ex_ready : payload :=
  {| p_threshold := 2;
     p_sig := Some {| sc_quorum := []; sc_created := 1; sc_updated := 2; sc_expires := 700000 |};
     p_dkg := Some ex_dkg;
     p_sgn := Some {| gc_batch := 0%N; gc_initiator := 0; gc_quorum := []; gc_src := 0%N;
                      gc_created := 6; gc_updated := TZERO; gc_expires := 6 + sgn_deadline |};
     p_pubkeys := []; p_ids := [] |}.
Definition ex_good (b : tok) (i : Z) : input := (ev_sgn_partial, RPartial b i [(7%N, 8%N)] 100).
Definition ex_inputs : list input :=
  [ (ev_sgn_partial, RPartial 40%N 2 [(7%N, 8%N)] 90);        (* a late answer to an older batch *)
    ex_good 41%N 0;
    (ev_sgn_start, RStart 42%N 1 95 [{| tv_idlen := 3; tv_paylen := 3; tv_start := 0; tv_end := 0 |}] 77%N);  (* a proposal while signing *)
    (ev_sgn_error, RSigError 1 (Some 9%N) 96 41%N);           (* participant 1 reports a failure *)
    (ev_sgn_error, RSigError 2 (Some 9%N) 96 40%N);           (* honest participant 2's late failure report for batch 40 *)
    ex_good 41%N 0;                                            (* a duplicate *)
    ex_good 41%N 2;
    ex_good 41%N 1 ].                                          (* an answer after the collection *)

Example ex_hypotheses :
  Ready ex_ready ex_dkg 2 /\ NoDup [0; 2] /\ Forall (honest_only 41%N [0; 2]) ex_inputs /\
  (forall i, In i [0; 2] -> (exists a, qget (dc_quorum ex_dkg) i = Some a) /\
                            exists req, In (ev_sgn_partial, req) ex_inputs /\ good_req 41%N i req).
Proof.
  assert (Hgood : forall i, 0 <= i -> good_req 41%N i (RPartial 41%N i [(7%N, 8%N)] 100)).
  { intros i Hi. exists [(7%N, 8%N)], 100. repeat split; try discriminate. exact Hi. }
  split; [|split; [|split]].
  - unfold Ready, ex_ready. cbn [p_dkg p_threshold p_sig p_sgn]. repeat split; try discriminate. eexists. split; reflexivity.
  - repeat constructor; cbn; intuition discriminate.
  - unfold ex_inputs, ex_good. repeat apply Forall_cons; [| | | | | | | |apply Forall_nil].
    + apply honest_only_partial. discriminate.
    + apply honest_only_partial. intros _ _. apply Hgood. lia.
    + apply honest_only_other; discriminate.
    + (* participant 1 is not in H *) apply honest_only_error. intros [E|[E|[]]]; discriminate E.
    + apply honest_only_error. intros _. split; discriminate.
    + apply honest_only_partial. intros _ _. apply Hgood. lia.
    + apply honest_only_partial. intros _ _. apply Hgood. lia.
    + apply honest_only_partial. intros _ _. apply Hgood. lia.
  - intros i [<-|[<-|[]]]; (split; [eexists; reflexivity|]); eexists; (split; [|apply Hgood; lia]); cbn; auto 8.
Qed.
Example ex_collects :
  collected 1000 (mkd st_idle ex_ready)
            ((ev_sgn_start, RStart 41%N 1 80 [{| tv_idlen := 3; tv_paylen := 3; tv_start := 0; tv_end := 0 |}] 76%N) :: ex_inputs)
  = [41%N].
Proof. vm_compute. reflexivity. Qed.

(* The hypothesis on failure reports in an honest participant's name is not idle.  A report
   written by an OLDER version carries no batch identifier (batch 0 here); the (honest, slow)
   participant 2's report for a FINISHED batch, arriving while batch 41 is being signed, is then
   booked on batch 41 - participants 2 and 0 answer batch 41 correctly (t = 2 correct answers) and
   nothing is collected.  The same report naming its batch (40) is refused and the batch is collected;
   so it is without any report *)
Definition ex_start41 : input :=
  (ev_sgn_start, RStart 41%N 1 80 [{| tv_idlen := 3; tv_paylen := 3; tv_start := 0; tv_end := 0 |}] 76%N).
Example late_error_answer_blocks_the_batch :
  collected 1000 (mkd st_idle ex_ready) [ex_start41; (ev_sgn_error, RSigError 2 (Some 9%N) 96 0%N); ex_good 41%N 2; ex_good 41%N 0] = [] /\
  collected 1000 (mkd st_idle ex_ready) [ex_start41; (ev_sgn_error, RSigError 2 (Some 9%N) 96 40%N); ex_good 41%N 2; ex_good 41%N 0] = [41%N] /\
  collected 1000 (mkd st_idle ex_ready) [ex_start41; ex_good 41%N 2; ex_good 41%N 0] = [41%N].
Proof. vm_compute. repeat split; reflexivity. Qed.
