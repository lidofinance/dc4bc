(* C02 (FSM side): the key-confirmation phase is confirmed only if every participant announced the
   SAME group key, and an announcement is accepted only if its public polynomial equals the one
   already retained - so the polynomial a hot node keeps is the one every accepted announcement
   carried. *)
From Coq Require Import String List ZArith Bool.
Require Import Fsm.Types Fsm.Actions Fsm.QuorumLemmas Lib.ListFacts.
Import ListNotations.

(* keys_agree compares every announced key with the first one *)
Lemma keys_agree_all (q : list (Z * dkg_part)) :
  (forall x, In x q -> dp_status (snd x) = dkg_confirmed 3) -> keys_agree q = true ->
  forall x y, In x q -> In y q -> dp_master (snd x) = dp_master (snd y).
Proof.
  intros Hall Hk. unfold keys_agree in Hk.
  rewrite filter_all in Hk by (intros x Hx; rewrite (Hall x Hx); reflexivity).
  assert (H0 : exists k0, forall z, In z q -> dp_master (snd z) = k0).
  { destruct q as [|x0 r]; [exists 0%N; intros z []|]. exists (dp_master (snd x0)). cbn [map] in Hk.
    intros z [<-|Hz]; [reflexivity|]. rewrite forallb_forall in Hk. symmetry.
    apply N.eqb_eq, Hk, (in_map (fun x => dp_master (snd x))), Hz. }
  destruct H0 as (k0 & H0). intros x y Hx Hy. rewrite (H0 x Hx), (H0 y Hy). reflexivity.
Qed.

(* an announcement the callback does not refuse: its participant becomes confirmed only if it carries
   the retained polynomial (nothing was retained yet and it is retained now, or it equals what was
   retained); with another polynomial the participant is marked with an error and the retained one stays *)
Theorem accepted_announcement_carries_retained_polynomial p pid key poly created out resp p' c :
  p_dkg p = Some c ->
  dkg_confirm 3 p pid key (Some poly) created = CbOk out resp p' ->
  (exists c' d', p_dkg p' = Some c' /\ qget (dc_quorum c') pid = Some d' /\
     ((dp_status d' = dkg_confirmed 3 /\ dc_pubpoly c' = poly /\ (dc_pubpoly c = 0%N \/ dc_pubpoly c = poly)) \/
      (dp_status d' = dkg_error 3 /\ dc_pubpoly c' = dc_pubpoly c /\ dc_pubpoly c <> poly))).
Proof.
  intros Hc. unfold dkg_confirm. destruct (_ || _); [discriminate|].
  rewrite Hc. destruct (qget (dc_quorum c) pid) as [d|] eqn:Eq; [|discriminate].
  destruct (negb _); [discriminate|].
  pose proof (fun d' => qget_qset_same (dc_quorum c) pid d d' Eq) as Hset.
  destruct (N.eqb_spec (dc_pubpoly c) 0) as [E0|E0]; cbn [negb andb].
  - (* nothing retained yet *)
    intros [= _ _ <-]. do 2 eexists. split; [reflexivity|]. split; [apply Hset|]. left. repeat split; auto.
  - destruct (N.eqb_spec (dc_pubpoly c) poly) as [E1|E1]; cbn [negb]; intros [= _ _ <-]; do 2 eexists;
      (split; [reflexivity|]); (split; [apply Hset|]).
    + (* the retained polynomial again *) left. repeat split; auto.
    + (* another one: the participant is marked with an error *) right. repeat split; auto.
Qed.
