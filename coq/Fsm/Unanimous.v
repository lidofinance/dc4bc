(* C05 (1): unanimity and order.  A phase is left towards the next one only when EVERY participant
   has confirmed it (callbacks), and the regenerated tables leave no way from the entry state to
   signing-ready that avoids any of the phases or takes them in another order (graph check by
   computation on Gen.Tables, re-done on every run). *)
From Coq Require Import String List ZArith Bool.
Require Import Fsm.EngineDefs Fsm.Types Fsm.Engine Fsm.Actions.
Require Gen.Tables.
Import ListNotations.
Local Open Scope string_scope.

Lemma none_in_other_status {A} (status : A -> N) (s : N) (q : list (Z * A)) :
  existsb (fun x => negb (N.eqb (status (snd x)) s)) q = false -> forall x, In x q -> status (snd x) = s.
Proof.
  intros H x Hx. apply N.eqb_eq, negb_false_iff. destruct (negb _) eqn:E; [|reflexivity].
  rewrite <- H. symmetry. apply existsb_exists. exists x. split; [exact Hx|exact E].
Qed.

(* the proposal is validated only when every invited participant has accepted *)
Theorem sig_validated_unanimous ev p req resp p' :
  action_sig_validate ev p req = CbOk ev_sig_set_validated resp p' ->
  exists conf, p_sig p = Some conf /\ forall x, In x (sc_quorum conf) -> sp_status (snd x) = SigConfirmed.
Proof.
  unfold action_sig_validate. destruct (p_sig p) as [conf|]; [|discriminate]. intros H. exists conf. split; [reflexivity|].
  destruct (expired _ _); [discriminate H|]. destruct (existsb _ _); [discriminate H|].
  destruct (existsb _ _) eqn:E; [discriminate H|].
  exact (none_in_other_status sp_status SigConfirmed _ E).
Qed.

(* the validation's other answers name an event that is not the phase's confirmation (the names
   are literals once k is a numeral; every k beyond 3 shares the names of phase 3) *)
Lemma dkg_answer_other k out r q resp p' :
  out = ev_dkg_cancel_timeout k \/ out = ev_dkg_cancel_error k \/ out = ev_dkg_cancel_error 3 \/ out = "" ->
  CbOk out r q <> CbOk (ev_dkg_confirmed k) resp p'.
Proof. intros [->|[->|[->| ->]]]; destruct k as [|[[?|?|]|[?|?|]|]]; discriminate. Qed.

(* DKG phase k (commits, deals, responses, master keys) is confirmed only when every participant
   of the quorum has confirmed it, and the last one only when the announced keys agree *)
Theorem dkg_validate_confirmed k ev p req resp p' :
  action_dkg_validate k ev p req = CbOk (ev_dkg_confirmed k) resp p' ->
  exists c, p_dkg p = Some c /\ (forall x, In x (dc_quorum c) -> dp_status (snd x) = dkg_confirmed k) /\
            (k = 3%N -> keys_agree (dc_quorum c) = true).
Proof.
  unfold action_dkg_validate. destruct (p_dkg p) as [c|]; [|discriminate]. intros H. exists c. split; [reflexivity|].
  destruct (expired _ _); [exfalso; revert H; apply dkg_answer_other; auto|].
  destruct (existsb _ _); [exfalso; revert H; apply dkg_answer_other; auto|].
  destruct (N.eqb k 3 && negb (keys_agree (dc_quorum c))) eqn:Ek; [exfalso; revert H; apply dkg_answer_other; auto|].
  destruct (existsb _ _) eqn:E; [exfalso; revert H; apply dkg_answer_other; auto|].
  split.
  - exact (none_in_other_status dp_status (dkg_confirmed k) _ E).
  - intros ->. destruct (keys_agree _); [reflexivity|discriminate Ek].
Qed.

(* order: the state graph of the three regenerated tables (23 states; every round of `bfs` adds a
   state or stops, so the fuel 64 is never used up) *)
Definition all_transitions : list trans :=
  ft_transitions Gen.Tables.sigprop_table ++ ft_transitions Gen.Tables.dkgprop_table ++ ft_transitions Gen.Tables.signing_table.

Definition succs (avoid : string) (s : string) : list string :=
  map t_dst (filter (fun tr => String.eqb (t_src tr) s && negb (String.eqb (t_dst tr) avoid)) all_transitions).

Fixpoint bfs (fuel : nat) (avoid : string) (frontier visited : list string) : list string :=
  match fuel with
  | O => visited
  | S f =>
      let next := filter (fun s => negb (mem_str s visited)) (flat_map (succs avoid) frontier) in
      match next with
      | [] => visited
      | _ => bfs f avoid next (visited ++ next)
      end
  end.
(* can `dst` be reached from `src` without ever entering `avoid` *)
Definition reach_avoiding (avoid src dst : string) : bool :=
  negb (String.eqb src avoid) && mem_str dst (bfs 64 avoid [src] [src]).

Definition phase_order : list string :=
  [ "state_sig_proposal_await_participants_confirmations"; "state_sig_proposal_collected";
    "state_dkg_commits_await_confirmations"; "state_dkg_deals_await_confirmations";
    "state_dkg_responses_await_confirmations"; "state_dkg_master_key_await_confirmations";
    "state_dkg_master_key_collected" ].

Fixpoint consecutive (l : list string) : list (string * string) :=
  match l with a :: (b :: _) as r => (a, b) :: consecutive r | _ => [] end.
