(* C05 (4), callback level: a callback that refuses a request leaves the payload as it was. *)
From Coq Require Import String List.
Require Import Fsm.Types Fsm.Actions Fsm.Provider.
Import ListNotations.

(* A callback is a decision tree with answers at its leaves, and every refusing leaf reads `CbErr p`
   with the payload p the callback was given.  `leaves` descends along the test at the head of the
   tree (the inner test first where a test's subject is itself a test) and closes each leaf. *)
Ltac leaves :=
  cbv beta iota zeta;
  lazymatch goal with
  | |- match (match ?x with _ => _ end) with _ => _ end = _ -> _ => destruct x; leaves
  | |- match ?x with _ => _ end = _ -> _ => destruct x; leaves
  | |- CbErr _ = _ -> _ => intros [= <-]; reflexivity
  | |- _ => discriminate
  end.

Lemma dkg_dispatch_err ks ev p req p' : dkg_dispatch ks ev p req = CbErr p' -> p' = p.
Proof.
  induction ks as [|k r IH]; cbn [dkg_dispatch]; [leaves|].
  destruct (String.eqb ev (ev_dkg_confirm k)); [unfold action_dkg_confirm, dkg_confirm; leaves|].
  destruct (String.eqb ev (ev_dkg_error k)); [unfold action_dkg_error; leaves|].
  destruct (String.eqb ev (ev_dkg_validate k)); [unfold action_dkg_validate; leaves|exact IH].
Qed.

(* every registered callback of the three machines *)
Theorem callback_refusal_keeps_payload mach ev p req p' :
  cb_by_name mach ev p req = CbErr p' -> p' = p.
Proof.
  unfold cb_by_name. destruct (String.eqb mach _); [|destruct (String.eqb mach _)].
  - unfold cb_sigprop, action_sig_init, action_sig_response, action_sig_validate. leaves.
  - unfold cb_dkgprop. destruct (String.eqb ev ev_dkg_init); [unfold action_dkg_init; leaves|apply dkg_dispatch_err].
  - unfold cb_signing, action_sgn_init, action_sgn_start, action_sgn_partial, action_sgn_validate,
      action_sgn_error, action_sgn_restart, set_sig_updated.
    leaves.
Qed.
