(* Model of fsm_pool.Init / MachineByState / EntryPointMachine and of
   state_machines.Create / FromDump / FSMInstance.Do.  Definitions only. *)
From Coq Require Import String List NArith ZArith Bool.
Require Import Fsm.EngineDefs Fsm.Types Fsm.Engine Fsm.Actions.
Require Gen.Tables.
Import ListNotations.
Local Open Scope string_scope.

Definition machines : list ftable :=
  [Gen.Tables.sigprop_table; Gen.Tables.dkgprop_table; Gen.Tables.signing_table].

Fixpoint slookup (k : string) (l : list (string * string)) : option string :=
  match l with [] => None | (a, b) :: r => if String.eqb a k then Some b else slookup k r end.

Definition table_by_name (n : string) : option ftable :=
  find (fun t => String.eqb (ft_name t) n) machines.

Definition cb_by_name (n : string) : callback :=
  if String.eqb n (ft_name Gen.Tables.sigprop_table) then cb_sigprop
  else if String.eqb n (ft_name Gen.Tables.dkgprop_table) then cb_dkgprop
  else cb_signing.

(* fsm_pool.Init, second loop: every state of StatesList (source states; never a fin state of the
   same machine) is owned by its machine.  Computed from the regenerated tables and proved equal
   (as a set) to the live map in Props/C05.v (C05_pool_is_source_states). *)
Definition is_entry_state (s : string) : bool := existsb (fun t => String.eqb (ft_initial t) s) machines.
Definition pool_states_model : list (string * string) :=
  flat_map (fun t => map (fun s => (s, ft_name t))
                         (states_list t ++ filter (fun s => negb (is_entry_state s)) (ft_fin t))) machines.

(* MachineByState on the live map *)
Definition machine_by_state (s : string) : option ftable :=
  match slookup s Gen.Tables.pool_states with
  | Some n => table_by_name n
  | None => None
  end.

Record dump := { d_state : string; d_payload : payload }.

Record instance := { i_mach : string; i_cur : string; i_dstate : string; i_payload : payload }.

(* MustCopyWithState: the state must be in StatesList or a final state of the machine, unless empty *)
Definition copy_with_state_ok (t : ftable) (s : string) : bool :=
  String.eqb s "" || mem_str s (states_list t) || mem_str s (ft_fin t).

Inductive load_res := LoadOk (i : instance) | LoadErr | LoadPanic.

(* state_machines.Create *)
Definition create : load_res :=
  match table_by_name Gen.Tables.pool_entry_machine with
  | None => LoadErr
  | Some t =>
      if copy_with_state_ok t "__idle"
      then LoadOk {| i_mach := ft_name t; i_cur := "__idle"; i_dstate := "__idle"; i_payload := empty_payload |}
      else LoadPanic
  end.

(* state_machines.FromDump (after JSON decoding) *)
Definition from_dump (d : dump) : load_res :=
  match machine_by_state (d_state d) with
  | None => LoadErr
  | Some t =>
      if copy_with_state_ok t (d_state d)
      then LoadOk {| i_mach := ft_name t;
                     i_cur := if String.eqb (d_state d) "" then ft_initial t else d_state d;
                     i_dstate := d_state d; i_payload := d_payload d |}
      else LoadPanic
  end.

Definition dump_of (i : instance) : dump := {| d_state := i_dstate i; d_payload := i_payload i |}.

Inductive inst_res :=
| IRoute (i : instance)                                 (* result = nil, error: nothing changed *)
| IRes (i : instance) (rstate : string) (rdata : option response) (err : bool)
| IPanic.

(* FSMInstance.Do, first part: a machine sitting in one of its final states that is the entry state
   of another machine hands the round over to that machine (as FromDump does for a persisted round) *)
Definition handover (i : instance) : instance :=
  match table_by_name (i_mach i) with
  | Some t =>
      if mem_str (i_cur i) (ft_fin t) then
        match machine_by_state (i_cur i) with
        | Some t' => if String.eqb (ft_name t') (i_mach i) then i
                     else {| i_mach := ft_name t'; i_cur := i_cur i; i_dstate := i_dstate i; i_payload := i_payload i |}
        | None => i
        end
      else i
  | None => i
  end.

(* FSMInstance.Do on the machine the instance holds *)
Definition inst_do_core (i : instance) (ev : string) (req : request) : inst_res :=
  match table_by_name (i_mach i) with
  | None => IRoute i
  | Some t =>
      match fsm_do t (cb_by_name (i_mach i)) (i_cur i) (i_payload i) ev req with
      | DoRoute => IRoute i
      | DoPanic => IPanic
      | DoRes cur rstate rdata err p =>
          (* the dump records the machine's state (also after a refused event) *)
          IRes {| i_mach := i_mach i; i_cur := cur; i_dstate := cur; i_payload := p |} rstate rdata err
      end
  end.

(* FSMInstance.Do *)
Definition inst_do (i : instance) (ev : string) (req : request) : inst_res :=
  inst_do_core (handover i) ev req.

(* ---- the part of node.processMessage that drives the FSM (without signatures, operations and
   storage): restore, apply the event, issue the two manual hand-overs and the restart ---- *)
Inductive step_res :=
| SOk (d : dump) (rstate : string) (rdata : option response)   (* what the node would persist *)
| SRej                                                         (* error: nothing is persisted *)
| SPanic.

Definition st_collected := "state_sig_proposal_collected".
Definition st_master_collected := "state_dkg_master_key_collected".
Definition st_partial_collected := "state_signing_partial_signs_collected".

Definition do_on_dump (d : dump) (ev : string) (req : request) : step_res :=
  match from_dump d with
  | LoadErr => SRej
  | LoadPanic => SPanic
  | LoadOk i =>
      match inst_do i ev req with
      | IRoute _ => SRej
      | IPanic => SPanic
      | IRes i' rstate rdata true => SRej
      | IRes i' rstate rdata false => SOk (dump_of i') rstate rdata
      end
  end.

Definition round_step (now : Z) (d : dump) (ev : string) (req : request) : step_res :=
  match do_on_dump d ev req with
  | SOk d1 r1 x1 =>
      let s2 := if String.eqb r1 st_collected then do_on_dump d1 ev_dkg_init (RDefault now)
                else SOk d1 r1 x1 in
      match s2 with
      | SOk d2 r2 x2 =>
          let s3 := if String.eqb r2 st_master_collected then do_on_dump d2 ev_sgn_init (RDefault now)
                    else SOk d2 r2 x2 in
          match s3 with
          | SOk d3 r3 x3 =>
              if String.eqb r3 st_partial_collected then
                match do_on_dump d3 ev_sgn_restart (RDefault now) with
                | SOk d4 _ _ => SOk d4 r3 x3
                | other => other
                end
              else SOk d3 r3 x3
          | other => other
          end
      | other => other
      end
  | other => other
  end.

(* ---- one differential case: FromDump followed by Do, with everything observable ---- *)
Inductive case_obs :=
| CLoadErr
| CPanic
| CObs (class : nat) (i : instance) (rstate : string) (rdata : option response).  (* 0 route, 1 err, 2 ok *)

Definition obs_of_do (r : inst_res) : case_obs :=
  match r with
  | IRoute i' => CObs 0 i' "" None
  | IPanic => CPanic
  | IRes i' rs rd err => CObs (if err then 1 else 2) i' rs rd
  end.

Definition fsm_case (d : dump) (ev : string) (req : request) : case_obs :=
  match from_dump d with
  | LoadErr => CLoadErr
  | LoadPanic => CPanic
  | LoadOk i => obs_of_do (inst_do i ev req)
  end.

(* ---- continuing in memory versus continuing after dump + restore (C19) ---- *)
Fixpoint mem_walk (i : instance) (steps : list (string * request)) : list (case_obs * case_obs) :=
  match steps with
  | [] => []
  | (ev, req) :: r =>
      let restored := fsm_case (dump_of i) ev req in
      let live := inst_do i ev req in
      (obs_of_do live, restored) ::
        match live with
        | IRes i' _ _ _ => mem_walk i' r
        | IRoute i' => mem_walk i' r
        | IPanic => []
        end
  end.

Definition mem_case (d : dump) (steps : list (string * request)) : option (list (case_obs * case_obs)) :=
  match from_dump d with
  | LoadOk i => Some (mem_walk i steps)
  | _ => None
  end.
