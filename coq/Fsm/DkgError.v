(* C11: an error report of an awaited participant ends the phase cancelled (regenerated DKG table,
   actionConfirmationError), in each of the four phases (k = 2: a refused deal, k = 3: a complaint). *)
From Coq Require Import String List ZArith Bool Lia.
Require Import Fsm.Types Fsm.EngineFacts Fsm.Actions Fsm.Provider Fsm.Handover.
Require Gen.Tables.
Import ListNotations.
Local Open Scope string_scope.
Local Open Scope Z_scope.

Definition dmk (s : string) (p : payload) : dump := {| d_state := s; d_payload := p |}.
Definition st_await_of (k : N) : string :=
  match k with
  | 0%N => "state_dkg_commits_await_confirmations" | 1%N => "state_dkg_deals_await_confirmations"
  | 2%N => "state_dkg_responses_await_confirmations" | _ => "state_dkg_master_key_await_confirmations" end.
Definition st_cancelled_of (k : N) : string :=
  match k with
  | 0%N => "state_dkg_commits_await_canceled_by_error" | 1%N => "state_dkg_deals_await_canceled_by_error"
  | 2%N => "state_dkg_responses_await_canceled_by_error" | _ => "state_dkg_master_key_await_canceled_by_error" end.

Lemma phase_cases k : (k < 4)%N -> k = 0%N \/ k = 1%N \/ k = 2%N \/ k = 3%N.
Proof. lia. Qed.

Lemma await_handles_error k : (k < 4)%N -> handles Gen.Tables.dkgprop_table (st_await_of k) (ev_dkg_error k).
Proof.
  (* closed look-ups in the regenerated table, by conversion; the last conjunct of `owns` is an
     inequality of literals *)
  intros Hk. unfold handles, owns.
  destruct (phase_cases k Hk) as [->|[->|[->| ->]]]; repeat apply conj; try reflexivity; discriminate.
Qed.

(* an error report that its callback accepts: the transition it names leads to the phase's cancelled
   state, to which no validation is attached and which is none of the hand-over states (look-ups in
   the regenerated table, phase by phase) *)
Lemma error_report_cancels now k p req p' :
  (k < 4)%N ->
  action_dkg_error k (ev_dkg_error k) p req = CbOk "" None p' ->
  round_step now (dmk (st_await_of k) p) (ev_dkg_error k) req = SOk (dmk (st_cancelled_of k) p') (st_cancelled_of k) None.
Proof.
  intros Hk H. pose proof (await_handles_error k Hk) as Hh.
  destruct (phase_cases k Hk) as [->|[->|[->| ->]]];
    (apply round_step_single; [exact (call_unvalidated _ _ _ p req "" None p' _ Hh H eq_refl eq_refl)|reflexivity]).
Qed.

(* the report of a participant that is still awaited in phase k is accepted *)
Lemma error_report_accepted k p c pid e created d :
  p_dkg p = Some c -> qget (dc_quorum c) pid = Some d -> dp_status d = dkg_await k ->
  0 <= pid -> is_zero_time created = false ->
  exists p', action_dkg_error k (ev_dkg_error k) p (RError pid (Some e) created) = CbOk "" None p'.
Proof.
  intros Hc Hq Hs Hp Hz. unfold action_dkg_error.
  destruct (Z.ltb_spec pid 0); [lia|]. rewrite Hz. rewrite Hc, Hq, Hs, N.eqb_refl.
  eexists. reflexivity.
Qed.

(* the report of a LATER phase has no route in a round that is still in an earlier one *)
Lemma later_phase_unrouted k j : (k < j)%N -> (j < 4)%N ->
  routed Gen.Tables.dkgprop_table (st_await_of k) (ev_dkg_error j) = false.
Proof.
  intros Hkj Hj.
  assert (Hk : (k < 4)%N) by lia.
  destruct (phase_cases j Hj) as [->|[->|[->| ->]]]; destruct (phase_cases k Hk) as [->|[->|[->| ->]]];
    first [reflexivity|exfalso; lia].
Qed.
