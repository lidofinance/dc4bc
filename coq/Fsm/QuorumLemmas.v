(* The association lists of Fsm/Actions.v (qget, qset, qmap: Go's map[int]*Participant kept as a
   list): what a lookup sees after an update, how an update moves a count, and what distinct members
   found with or without a property say about a count. *)
From Coq Require Import List ZArith Bool Lia.
Require Import Fsm.Actions.
Import ListNotations.
Local Open Scope Z_scope.

Lemma qget_In {A} (q : list (Z * A)) i a : qget q i = Some a -> In (i, a) q.
Proof.
  induction q as [|[j b] r IH]; cbn [qget]; [discriminate|].
  destruct (Z.eqb_spec j i) as [->|_]; [intros H; inversion H; left; reflexivity|right; auto].
Qed.

Lemma qget_qset_same {A} (q : list (Z * A)) i a a' : qget q i = Some a -> qget (qset q i a') i = Some a'.
Proof.
  induction q as [|[j b] r IH]; cbn [qget qset]; [discriminate|].
  destruct (j =? i) eqn:E; cbn [qget]; rewrite E; [reflexivity|exact IH].
Qed.

Lemma qget_qset_other {A} (q : list (Z * A)) i j a' : i <> j -> qget (qset q j a') i = qget q i.
Proof.
  intros Hn. induction q as [|[k b] r IH]; cbn [qget qset]; [reflexivity|].
  destruct (k =? j) eqn:E; cbn [qget].
  - apply Z.eqb_eq in E. subst k. destruct (Z.eqb_spec j i); [congruence|reflexivity].
  - rewrite IH. reflexivity.
Qed.

Lemma qset_length {A} (q : list (Z * A)) i a : length (qset q i a) = length q.
Proof. induction q as [|[j b] r IH]; cbn [qset length]; [reflexivity|]. destruct (j =? i); cbn [length]; congruence. Qed.

Lemma qget_qmap {A B} (f : A -> B) (q : list (Z * A)) i : qget (qmap f q) i = option_map f (qget q i).
Proof. induction q as [|[j a] r IH]; cbn; [reflexivity|]. destruct (j =? i); [reflexivity|exact IH]. Qed.

(* replacing the entry a of participant i by a' moves every count by what a and a' contribute *)
Lemma count_qset {A} (P : A -> bool) (q : list (Z * A)) i a a' : qget q i = Some a ->
  (length (filter (fun x => P (snd x)) (qset q i a')) + Nat.b2n (P a)
   = length (filter (fun x => P (snd x)) q) + Nat.b2n (P a'))%nat.
Proof.
  induction q as [|[j b] r IH]; cbn [qget qset]; [discriminate|].
  destruct (j =? i).
  - intros H. inversion H; subst b. cbn [filter snd]. destruct (P a), (P a'); cbn [length Nat.b2n]; lia.
  - intros H. specialize (IH H). cbn [filter snd]. destruct (P b); cbn [length]; lia.
Qed.

Lemma filter_split {A} (f : A -> bool) (l : list A) :
  (length (filter f l) + length (filter (fun x => negb (f x)) l) = length l)%nat.
Proof. induction l as [|x r IH]; cbn [filter length]; [reflexivity|]. destruct (f x); cbn [negb length]; lia. Qed.

(* distinct participants found in the quorum with a property: at least that many entries have it *)
Lemma count_ge {A} (P : A -> bool) (q : list (Z * A)) (H : list Z) :
  NoDup H -> (forall i, In i H -> exists a, qget q i = Some a /\ P a = true) ->
  (length H <= length (filter (fun x => P (snd x)) q))%nat.
Proof.
  intros Hnd Hall. rewrite <- (map_length fst). apply NoDup_incl_length; [exact Hnd|].
  intros i Hi. destruct (Hall i Hi) as (a & Hq & HP).
  change i with (fst (i, a)). apply in_map. apply filter_In. split; [exact (qget_In _ _ _ Hq)|exact HP].
Qed.

Lemma count_le {A} (P : A -> bool) (q : list (Z * A)) (H : list Z) :
  NoDup H -> (forall i, In i H -> exists a, qget q i = Some a /\ P a = false) ->
  (length (filter (fun x => P (snd x)) q) + length H <= length q)%nat.
Proof.
  intros Hnd Hall. rewrite <- (filter_split (fun x => P (snd x)) q). apply Nat.add_le_mono_l.
  apply (count_ge (fun a => negb (P a))); [exact Hnd|].
  intros i Hi. destruct (Hall i Hi) as (a & Hq & HP). exists a. rewrite HP. split; [exact Hq|reflexivity].
Qed.
