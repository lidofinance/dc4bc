(* C06: the signing FSM's counting rules. *)
From Coq Require Import String List ZArith Bool Lia.
Require Import Fsm.Types Fsm.Actions Fsm.QuorumLemmas.
Import ListNotations.
Local Open Scope Z_scope.

(* the automatic validation after each accepted signing event, while the deadline has not passed:
   too many failures cancel the batch, too few confirmations leave it waiting, otherwise it is
   collected (every entry marked as processed; deadline fields untouched) *)
Lemma sgn_validate_cases ev p req g :
  p_sgn p = Some g -> expired (gc_expires g) (gc_updated g) = false ->
  let n := Z.of_nat (length (gc_quorum g)) in
  let c := count_status SgnConfirmed (gc_quorum g) in
  let f := count_status SgnError (gc_quorum g) in
  (n - p_threshold p < f /\ action_sgn_validate ev p req = CbOk ev_sgn_cancel_error None p) \/
  (f <= n - p_threshold p /\ c < p_threshold p /\ action_sgn_validate ev p req = CbOk "" None p) \/
  (f <= n - p_threshold p /\ p_threshold p <= c /\
   exists entries g',
     action_sgn_validate ev p req
     = CbOk ev_sgn_confirmed (Some (RespSigningProcess (gc_batch g) (gc_src g) entries)) (set_sgn p g') /\
     gc_batch g' = gc_batch g /\ gc_expires g' = gc_expires g /\ gc_updated g' = gc_updated g).
Proof.
  intros Hg He n c f. unfold action_sgn_validate. rewrite Hg, He. fold n. fold f. fold c.
  destruct (Z.ltb_spec (n - p_threshold p) f) as [H1|H1]; [left; split; [exact H1|reflexivity]|].
  destruct (Z.ltb_spec (n - p_threshold p) (n - c)) as [H2|H2]; right; [left|right].
  - repeat split; [exact H1|lia].
  - split; [exact H1|]. split; [lia|]. do 2 eexists. split; [reflexivity|]. repeat split.
Qed.

Lemma count_qset_confirm (q : list (Z * sgn_part)) pid part part' :
  qget q pid = Some part -> gp_status part = SgnAwait -> gp_status part' = SgnConfirmed ->
  count_status SgnConfirmed (qset q pid part') = count_status SgnConfirmed q + 1 /\
  count_status SgnError (qset q pid part') = count_status SgnError q /\
  length (qset q pid part') = length q.
Proof.
  intros Hq Ha Hc. unfold count_status.
  pose proof (count_qset (fun a => N.eqb (gp_status a) SgnConfirmed) q pid part part' Hq) as H1.
  pose proof (count_qset (fun a => N.eqb (gp_status a) SgnError) q pid part part' Hq) as H2.
  cbv beta in H1, H2. rewrite Ha, Hc in H1, H2. cbn [N.eqb Pos.eqb Nat.b2n SgnAwait SgnConfirmed SgnError] in H1, H2.
  rewrite qset_length. repeat split; lia.
Qed.

(* a partial signature is only ever accepted for the batch being signed, from a participant of
   the quorum that is still awaited; it is then counted exactly once *)
Theorem partial_accept_spec ev p batch pid signs created out resp p' :
  action_sgn_partial ev p (RPartial batch pid signs created) = CbOk out resp p' ->
  exists g part g', p_sgn p = Some g /\ batch = gc_batch g /\ batch <> 0%N /\
                 qget (gc_quorum g) pid = Some part /\ gp_status part = SgnAwait /\
                 p_sgn p' = Some g' /\ gc_batch g' = gc_batch g /\
                 count_status SgnConfirmed (gc_quorum g') = count_status SgnConfirmed (gc_quorum g) + 1 /\
                 count_status SgnError (gc_quorum g') = count_status SgnError (gc_quorum g) /\
                 length (gc_quorum g') = length (gc_quorum g) /\ p_threshold p' = p_threshold p.
Proof.
  unfold action_sgn_partial.
  destruct (N.eqb_spec batch 0) as [|E0]; [discriminate|]. cbn [orb]. destruct (_ || _); [discriminate|].
  destruct (p_sgn p) as [g|]; [|discriminate].
  destruct (N.eqb_spec batch (gc_batch g)) as [Eb|]; [|discriminate].
  destruct (qget (gc_quorum g) pid) as [part|] eqn:Eq; [|discriminate].
  destruct (N.eqb_spec (gp_status part) SgnAwait) as [Es|]; [|discriminate]. cbn [negb].
  unfold set_sig_updated, set_sgn. cbn [p_sig]. destruct (p_sig p); [|discriminate].
  intros [= _ _ <-]. cbn [p_sgn p_threshold gc_quorum gc_batch].
  set (part' := Build_sgn_part _ SgnConfirmed _ _ _).
  destruct (count_qset_confirm (gc_quorum g) pid part part' Eq Es eq_refl) as (C1 & C2 & C3).
  exists g, part. eexists. repeat split; assumption.
Qed.
