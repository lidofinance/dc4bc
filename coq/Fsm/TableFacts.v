(* Facts about the regenerated tables (Gen/Tables.v), and the definitions through which C05 states
   that the pool and the callback lists the model is written for are the regenerated ones. *)
From Coq Require Import String List ZArith Bool.
Require Import Fsm.EngineDefs Fsm.Engine Fsm.Actions Fsm.Provider.
Require Gen.Tables.
Import ListNotations.
Local Open Scope string_scope.

Lemma slookup_In k l v : slookup k l = Some v -> In (k, v) l.
Proof.
  induction l as [|[a b] r IH]; cbn [slookup]; [discriminate|].
  destruct (String.eqb a k) eqn:E.
  - intros H. inversion H; subst. apply String.eqb_eq in E. subst. auto with datatypes.
  - intros H. auto with datatypes.
Qed.

(* inclusion of one state map in another: C05_pool_is_source_states compares the model of
   fsm_pool.Init (pool_states_model) with the live map in both directions *)
Fixpoint incl_b (a b : list (string * string)) : bool :=
  match a with
  | [] => true
  | (k, v) :: r => (match slookup k b with Some v' => String.eqb v v' | None => false end) && incl_b r b
  end.

(* the deadlines are whole seconds (the model counts seconds) and seven days *)
Lemma deadlines_ok :
  Gen.Tables.cfg_SigConfirmationDeadline = (604800 * 1000000000)%Z /\
  Gen.Tables.cfg_DkgConfirmationDeadline = (604800 * 1000000000)%Z /\
  Gen.Tables.cfg_SigningConfirmationDeadline = (604800 * 1000000000)%Z.
Proof. repeat split; reflexivity. Qed.

Lemma sig_deadline_val : sig_deadline = 604800%Z.
Proof. unfold sig_deadline, deadline_secs. rewrite (proj1 deadlines_ok). apply Z.div_mul. discriminate. Qed.
Lemma dkg_deadline_val : dkg_deadline = 604800%Z.
Proof. unfold dkg_deadline, deadline_secs. rewrite (proj1 (proj2 deadlines_ok)). apply Z.div_mul. discriminate. Qed.

Lemma entry_machine_ok : Gen.Tables.pool_entry_machine = ft_name Gen.Tables.sigprop_table.
Proof. reflexivity. Qed.

(* the events the model's callback functions dispatch on: C05_tables_match_model compares them with
   the callbacks registered in the live tables *)
Definition model_cb_events_sig := [ev_sig_init; ev_sig_confirm; ev_sig_decline; ev_sig_validate].
Definition model_cb_events_dkg :=
  ev_dkg_init :: flat_map (fun k => [ev_dkg_confirm k; ev_dkg_error k; ev_dkg_validate k]) [0; 1; 2; 3]%N.
Definition model_cb_events_sgn := [ev_sgn_init; ev_sgn_start; ev_sgn_partial; ev_sgn_validate; ev_sgn_error; ev_sgn_restart].

Definition same_set (a b : list string) : bool :=
  forallb (fun x => mem_str x b) a && forallb (fun x => mem_str x a) b.
