(* C19: which round states can be restored, and that restoring does not change behaviour. *)
From Coq Require Import String List ZArith Bool.
Require Import Fsm.EngineDefs Fsm.Types Fsm.Engine Fsm.Actions Fsm.Provider Fsm.CancelFinal Fsm.Handover.
Require Gen.Tables.
Import ListNotations.
Local Open Scope string_scope.

Lemma machine_by_state_In s t : machine_by_state s = Some t -> In t machines.
Proof. intros H. exact (table_by_name_In _ t (machine_by_state_table s t H)). Qed.

(* whatever an FSM call persists has an owner again: the call runs on the owner's table and ends in
   a state that table knows *)
Lemma do_on_dump_owner d ev req d' rs rd :
  (exists t, owns t (d_state d)) -> do_on_dump d ev req = SOk d' rs rd -> exists t, owns t (d_state d').
Proof.
  destruct d as [s p]. intros (t & Ho) H.
  pose proof (machine_by_state_In s t (proj1 Ho)) as Ht.
  pose proof (do_on_dump_closed t (known t) s p ev req d' rs rd Ho (known_closed t Ht) (owns_known t s Ho) H) as Hk.
  destruct (known_owner t (d_state d') Ht Hk) as (t' & Ho' & _). exists t'. exact Ho'.
Qed.

Definition initial_dump : dump := {| d_state := "__idle"; d_payload := empty_payload |}.

(* a round whose state has an owner can be loaded back after any history *)
Theorem owned_round_loadable d tr :
  (exists t, owns t (d_state d)) -> exists i, from_dump (run_round d tr) = LoadOk i.
Proof.
  intros H. apply (run_round_preserves (fun d => exists t, owns t (d_state d)) do_on_dump_owner tr) in H.
  destruct (run_round d tr) as [s p]. destruct H as (t & Ho). eexists. apply (from_dump_owned t s p Ho).
Qed.

(* every round reachable by any history can be loaded back *)
Theorem all_loadable tr : exists i, from_dump (run_round initial_dump tr) = LoadOk i.
Proof. apply owned_round_loadable. exists Gen.Tables.sigprop_table. split; [reflexivity|split; [reflexivity|discriminate]]. Qed.

(* the history that used to end in an unloadable state (defect repaired: fix bd98172) *)
Definition declined_history : list (Z * string * request) :=
  [ (0%Z, ev_sig_init,
     RList [ {| pe_name := 2; pe_name_len := 5; pe_pk := 3; pe_pk_len := 12; pe_dpk := 4; pe_dpk_len := 12 |};
             {| pe_name := 5; pe_name_len := 5; pe_pk := 6; pe_pk_len := 12; pe_dpk := 7; pe_dpk_len := 12 |} ]%N 2 0);
    (20%Z, ev_sig_decline, RPart 1 10) ].
Example declined_round_is_loadable :
  d_state (run_round initial_dump declined_history) = "state_sig_proposal_canceled_by_participant" /\
  exists i, from_dump (run_round initial_dump declined_history) = LoadOk i.
Proof. split; [vm_compute; reflexivity|apply all_loadable]. Qed.

(* restoring does not change behaviour: an instance whose machine owns its current state
   answers every event exactly like the instance rebuilt from its dump *)
Definition owned (i : instance) : Prop :=
  i_dstate i = i_cur i /\ i_cur i <> "" /\
  exists t, machine_by_state (i_cur i) = Some t /\ ft_name t = i_mach i /\ copy_with_state_ok t (i_cur i) = true.

Theorem restore_same_instance i : owned i -> from_dump (dump_of i) = LoadOk i.
Proof.
  destruct i as [m c ds p]. intros (Hd & Hne & t & Hm & Hn & Hc). cbn in Hd, Hne, Hm, Hn, Hc. subst ds m.
  exact (from_dump_owned t c p (conj Hm (conj Hc Hne))).
Qed.

Theorem restore_step i ev req :
  owned i -> fsm_case (dump_of i) ev req = obs_of_do (inst_do i ev req).
Proof. intros H. unfold fsm_case. rewrite (restore_same_instance i H). reflexivity. Qed.

(* a freshly restored instance is owned; so two consecutive restores agree *)
Theorem restored_is_owned d i : from_dump d = LoadOk i -> owned i.
Proof.
  unfold from_dump. destruct (machine_by_state (d_state d)) as [t|] eqn:Em; [|discriminate].
  destruct (copy_with_state_ok t (d_state d)) eqn:Ec; [|discriminate].
  destruct (String.eqb_spec (d_state d) "") as [E|Hne].
  - (* no machine of the regenerated pool owns the empty state *) rewrite E in Em. discriminate Em.
  - intros H. inversion H; subst. repeat split; auto. exists t. auto.
Qed.

(* its machine knows its state *)
Definition live (i : instance) : Prop :=
  i_dstate i = i_cur i /\ i_cur i <> "" /\
  exists t, table_by_name (i_mach i) = Some t /\
            (mem_str (i_cur i) (states_list t) || mem_str (i_cur i) (ft_fin t)) = true.

Lemma handover_owned i : live i -> owned (handover i).
Proof.
  intros (Hd & Hne & t & Ht & Hs). pose proof (table_by_name_name _ _ Ht) as Hn.
  destruct (known_owner t (i_cur i) (table_by_name_In _ _ Ht) (proj2 (known_mem _ _) Hs))
    as (t' & (Em & Hc & _) & Hor).
  (* whichever instance the hand-over returns: it keeps the state, and t' is its machine *)
  assert (Ho : forall j, i_dstate j = i_dstate i -> i_cur j = i_cur i -> ft_name t' = i_mach j -> owned j).
  { intros j Hjd Hjc Hjm. unfold owned. rewrite Hjd, Hjc. repeat split; auto. exists t'. auto. }
  unfold handover. rewrite Ht, Em.
  destruct (mem_str (i_cur i) (ft_fin t)) eqn:Ef.
  - destruct (String.eqb_spec (ft_name t') (i_mach i)); apply Ho; auto.
  - apply Ho; auto. destruct Hor as [Hor|Hor]; congruence.
Qed.

(* the dump of a live instance restores to what the hand-over makes of it, and handing that over
   again changes nothing *)
Lemma live_restores i : live i ->
  from_dump (dump_of i) = LoadOk (handover i) /\ handover (handover i) = handover i.
Proof.
  intros Hl. pose proof (handover_owned i Hl) as Ho. rewrite <- (dump_of_handover i).
  split; [exact (restore_same_instance _ Ho)|].
  destruct Ho as (_ & _ & t & Hm & Hn & _). exact (handover_id _ t Hm Hn).
Qed.

(* every live instance, no ownership hypothesis: a live round hands over like a restored one (fix 95063bf) *)
Theorem restore_step_live i ev req :
  live i -> fsm_case (dump_of i) ev req = obs_of_do (inst_do i ev req).
Proof. intros Hl. destruct (live_restores i Hl) as [Hr Hh]. unfold fsm_case, inst_do. rewrite Hr, Hh. reflexivity. Qed.
