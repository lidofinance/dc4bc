(* Which machine owns a round state.  The hand-over step of FSMInstance.Do never touches what is
   persisted and is the identity on an instance whose machine owns its state; FromDump + Do on a
   dump whose state has an owner is the engine's Do on the owner's table, and for an event that runs
   its own callback first (`handles`) it is read off that table: the callback, the transition its
   answer names, the validation attached to the state reached (`call_refused`, `call_unvalidated`,
   `call_validated`); round_step is up to four such calls.  Last, the sweep over the regenerated
   pool (`pool_ok`): the states a machine knows are closed under its table, and each has an owner. *)
From Coq Require Import String List Bool.
Require Import Fsm.EngineDefs Fsm.Types Fsm.Engine Fsm.EngineFacts Fsm.Actions Fsm.Provider.
Import ListNotations.
Local Open Scope string_scope.

Lemma dump_of_handover i : dump_of (handover i) = dump_of i.
Proof.
  unfold handover. destruct (table_by_name (i_mach i)); [|reflexivity].
  destruct (mem_str _ _); [|reflexivity]. destruct (machine_by_state _); [|reflexivity].
  destruct (String.eqb _ _); reflexivity.
Qed.

Lemma handover_id i t : machine_by_state (i_cur i) = Some t -> ft_name t = i_mach i -> handover i = i.
Proof.
  intros Hm Hn. unfold handover. destruct (table_by_name (i_mach i)); [|reflexivity].
  destruct (mem_str _ _); [|reflexivity]. rewrite Hm, Hn, String.eqb_refl. reflexivity.
Qed.

Lemma table_by_name_In n t : table_by_name n = Some t -> In t machines.
Proof. unfold table_by_name. intros H. apply find_some in H. tauto. Qed.

Lemma table_by_name_name n t : table_by_name n = Some t -> ft_name t = n.
Proof. unfold table_by_name. intros H. apply find_some in H as [_ H]. apply String.eqb_eq in H. exact H. Qed.

Lemma machine_by_state_table s t : machine_by_state s = Some t -> table_by_name (ft_name t) = Some t.
Proof.
  unfold machine_by_state. destruct (slookup s _); [|discriminate]. intros H.
  rewrite (table_by_name_name _ _ H). exact H.
Qed.

(* MachineByState finds t for s, and t accepts s in MustCopyWithState.  For a concrete state of the
   regenerated tables both look-ups are closed terms and hold by `reflexivity` *)
Definition owns (t : ftable) (s : string) : Prop :=
  machine_by_state s = Some t /\ copy_with_state_ok t s = true /\ s <> "".

Lemma from_dump_owned t s p : owns t s ->
  from_dump {| d_state := s; d_payload := p |} =
  LoadOk {| i_mach := ft_name t; i_cur := s; i_dstate := s; i_payload := p |}.
Proof.
  intros (Hm & Hc & Hne). unfold from_dump. cbn [d_state d_payload]. rewrite Hm, Hc.
  apply String.eqb_neq in Hne. rewrite Hne. reflexivity.
Qed.

(* what do_on_dump makes of the engine's answer: a result with an error persists nothing *)
Definition step_of_do (r : do_res) : step_res :=
  match r with
  | DoRes cur rs rd false p => SOk {| d_state := cur; d_payload := p |} rs rd
  | DoPanic => SPanic
  | _ => SRej
  end.

Lemma do_on_dump_owned t s p ev req : owns t s ->
  do_on_dump {| d_state := s; d_payload := p |} ev req =
  step_of_do (fsm_do t (cb_by_name (ft_name t)) s p ev req).
Proof.
  intros Ho. unfold do_on_dump. rewrite (from_dump_owned t s p Ho). destruct Ho as (Hm & _ & _).
  unfold inst_do. rewrite (handover_id {| i_mach := ft_name t; i_cur := s; i_dstate := s; i_payload := p |} t Hm eq_refl).
  unfold inst_do_core. cbn [i_mach i_cur i_payload]. rewrite (machine_by_state_table _ _ Hm).
  destruct (fsm_do t _ s p ev req) as [|cur rs rd [|] p'|]; reflexivity.
Qed.

Lemma do_on_dump_closed t S s p ev req d' rs rd :
  owns t s -> closed_b t S = true -> In s S ->
  do_on_dump {| d_state := s; d_payload := p |} ev req = SOk d' rs rd -> In (d_state d') S.
Proof.
  intros Ho Hc Hs H. rewrite (do_on_dump_owned t s p ev req Ho) in H.
  destruct (fsm_do t _ s p ev req) as [|cur rs' rd' [|] p'|] eqn:Ed; try discriminate.
  injection H as <- _ _. exact (fsm_do_closed _ _ S _ _ _ _ _ _ _ _ _ Hc Hs Ed).
Qed.

(* round_step is up to four FSM calls: what every call preserves, the whole step preserves *)
Lemma round_step_preserves (P : dump -> Prop) :
  (forall d ev req d' rs rd, P d -> do_on_dump d ev req = SOk d' rs rd -> P d') ->
  forall now d ev req d' rs rd, P d -> round_step now d ev req = SOk d' rs rd -> P d'.
Proof.
  intros Hstep now d ev req d' rs rd H0 H. unfold round_step in H.
  destruct (do_on_dump d ev req) as [d1 r1 x1| |] eqn:E1; try discriminate.
  assert (H1 : P d1) by (eapply Hstep; eassumption).
  destruct (if String.eqb r1 st_collected then _ else _) as [d2 r2 x2| |] eqn:E2; try discriminate.
  assert (H2 : P d2).
  { destruct (String.eqb r1 st_collected); [eapply Hstep; eassumption|injection E2 as <- _ _; exact H1]. }
  destruct (if String.eqb r2 st_master_collected then _ else _) as [d3 r3 x3| |] eqn:E3; try discriminate.
  assert (H3 : P d3).
  { destruct (String.eqb r2 st_master_collected); [eapply Hstep; eassumption|injection E3 as <- _ _; exact H2]. }
  destruct (String.eqb r3 st_partial_collected).
  - destruct (do_on_dump d3 ev_sgn_restart _) as [d4 r4 x4| |] eqn:E4; try discriminate.
    injection H as <- _ _. eapply Hstep; eassumption.
  - injection H as <- _ _. exact H3.
Qed.

Lemma round_step_rej now d ev req : do_on_dump d ev req = SRej -> round_step now d ev req = SRej.
Proof. intros H. unfold round_step. rewrite H. reflexivity. Qed.

Lemma round_step_single now d ev req d1 r1 x1 :
  do_on_dump d ev req = SOk d1 r1 x1 ->
  mem_str r1 [st_collected; st_master_collected; st_partial_collected] = false ->
  round_step now d ev req = SOk d1 r1 x1.
Proof.
  intros H Hn. cbn [mem_str] in Hn. apply orb_false_elim in Hn as [H1 Hn]. apply orb_false_elim in Hn as [H2 Hn].
  apply orb_false_elim in Hn as [H3 _]. unfold round_step. rewrite H, H1, H2, H3. reflexivity.
Qed.

Lemma round_step_unrouted t now s p ev req :
  owns t s -> routed t s ev = false -> round_step now {| d_state := s; d_payload := p |} ev req = SRej.
Proof. intros Ho Hr. apply round_step_rej. rewrite (do_on_dump_owned t s p ev req Ho), fsm_do_eq, Hr. reflexivity. Qed.

(* in state s, owned by t, event ev runs its own callback first: ev has a route there and a registered
   callback, and no before-mode event is attached to s.  Like `owns`, closed look-ups for a concrete
   state and event of a regenerated table *)
Definition handles (t : ftable) (s ev : string) : Prop :=
  owns t s /\ routed t s ev = true /\ find_auto (ft_auto t) s 1 = None /\ mem_str ev (ft_callbacks t) = true.

Lemma call_cb t s ev p req : handles t s ev ->
  do_on_dump {| d_state := s; d_payload := p |} ev req =
  step_of_do (do_tail t (cb_by_name (ft_name t)) req ev s "" (cb_by_name (ft_name t) ev p req)).
Proof.
  intros (Ho & Hr & Hb & Hc). rewrite (do_on_dump_owned t s p ev req Ho), fsm_do_eq, Hr, process_auto_eq, Hb.
  unfold run_cb. rewrite Hc. reflexivity.
Qed.

Lemma call_refused t s ev p req p' : handles t s ev ->
  cb_by_name (ft_name t) ev p req = CbErr p' -> do_on_dump {| d_state := s; d_payload := p |} ev req = SRej.
Proof. intros Hh H. rewrite (call_cb t s ev p req Hh), H. reflexivity. Qed.

Lemma call_unvalidated t s ev p req out rd p1 s1 : handles t s ev ->
  cb_by_name (ft_name t) ev p req = CbOk out rd p1 ->
  set_state t s (route ev out) = Some s1 -> find_auto (ft_auto t) s1 2 = None ->
  do_on_dump {| d_state := s; d_payload := p |} ev req = SOk {| d_state := s1; d_payload := p1 |} s1 rd.
Proof.
  intros Hh H Hs Ha. rewrite (call_cb t s ev p req Hh), H. unfold do_tail.
  rewrite Hs, process_auto_eq, Ha. reflexivity.
Qed.

Lemma call_validated t s ev p req out rd p1 s1 v out' rd' p2 s2 : handles t s ev ->
  cb_by_name (ft_name t) ev p req = CbOk out rd p1 ->
  set_state t s (route ev out) = Some s1 -> find_auto (ft_auto t) s1 2 = Some v -> mem_str v (ft_callbacks t) = true ->
  cb_by_name (ft_name t) v p1 req = CbOk out' rd' p2 ->
  set_state t s1 (route v out') = Some s2 ->
  do_on_dump {| d_state := s; d_payload := p |} ev req = SOk {| d_state := s2; d_payload := p2 |} s2 (or_data rd rd').
Proof.
  intros Hh H Hs Ha Hc Hv Hs2. rewrite (call_cb t s ev p req Hh), H. unfold do_tail.
  rewrite Hs, process_auto_eq, Ha. unfold run_cb. rewrite Hc, Hv. cbn [auto_fin]. rewrite Hs2. reflexivity.
Qed.

(* the states a machine knows: those MustCopyWithState accepts *)
Definition known (t : ftable) : list string := states_list t ++ ft_fin t.

Lemma known_mem t s : In s (known t) <-> mem_str s (states_list t) || mem_str s (ft_fin t) = true.
Proof. unfold known. rewrite <- mem_str_app. symmetry. apply mem_str_In. Qed.

Lemma owns_known t s : owns t s -> In s (known t).
Proof.
  intros (_ & Hc & Hne). apply known_mem. unfold copy_with_state_ok in Hc.
  apply String.eqb_neq in Hne. rewrite Hne in Hc. exact Hc.
Qed.

(* the one fact about the pool that restoring rests on: what a machine knows is closed under its
   transitions, and each such state has an owner that accepts it - the machine itself, unless the
   state is one of its final states (then possibly the next machine, whose entry state it is) *)
Lemma pool_ok :
  forallb (fun t =>
    closed_b t (known t) &&
    forallb (fun s => match machine_by_state s with
                      | Some t' => copy_with_state_ok t' s && negb (String.eqb s "") &&
                                   (String.eqb (ft_name t') (ft_name t) || mem_str s (ft_fin t))
                      | None => false
                      end) (known t)) machines = true.
Proof. vm_compute. reflexivity. Qed.

Lemma known_closed t : In t machines -> closed_b t (known t) = true.
Proof. intros Ht. apply (proj1 (forallb_forall _ _) pool_ok) in Ht. apply andb_prop in Ht as [Hc _]. exact Hc. Qed.

Lemma known_owner t s : In t machines -> In s (known t) ->
  exists t', owns t' s /\ (ft_name t' = ft_name t \/ mem_str s (ft_fin t) = true).
Proof.
  intros Ht Hs. apply (proj1 (forallb_forall _ _) pool_ok) in Ht. apply andb_prop in Ht as [_ Ho].
  apply (proj1 (forallb_forall _ _) Ho) in Hs. destruct (machine_by_state s) as [t'|] eqn:Em; [|discriminate].
  apply andb_prop in Hs as [Hs Hn]. apply andb_prop in Hs as [Hc Hne].
  exists t'. split.
  - split; [exact Em|]. split; [exact Hc|]. apply String.eqb_neq, negb_true_iff. exact Hne.
  - apply orb_true_iff in Hn as [Hn|Hn]; [left; apply String.eqb_eq; exact Hn|right; exact Hn].
Qed.
