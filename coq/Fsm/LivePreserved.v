(* An instance that is live (its machine knows its state) stays live under FSMInstance.Do, and every
   restored instance is live: so "continuing in memory = continuing after dump + restore" (C19)
   holds along every in-memory continuation of a restored round. *)
From Coq Require Import String List.
Require Import Fsm.Engine Fsm.EngineFacts Fsm.Provider Fsm.Handover Fsm.Loadable.
Import ListNotations.
Local Open Scope string_scope.

Lemma owned_live i : owned i -> live i.
Proof.
  intros (Hd & Hne & t & Hm & Hn & Hc). split; [exact Hd|]. split; [exact Hne|].
  exists t. split; [rewrite <- Hn; exact (machine_by_state_table _ _ Hm)|].
  apply known_mem, owns_known. repeat split; assumption.
Qed.

Lemma inst_do_core_live i ev req i' rs rd err :
  live i -> inst_do_core i ev req = IRes i' rs rd err -> live i'.
Proof.
  intros (Hd & Hne & t & Ht & Hs) H. unfold inst_do_core in H. rewrite Ht in H.
  destruct (fsm_do t _ _ _ _ _) as [|cur rs0 rd0 err0 p0|] eqn:Ef; try discriminate.
  inversion H; subst. clear H. pose proof (table_by_name_In _ _ Ht) as Hin.
  pose proof (fsm_do_closed _ _ _ _ _ _ _ _ _ _ _ _ (known_closed t Hin) (proj2 (known_mem _ _) Hs) Ef) as Hk.
  destruct (known_owner t cur Hin Hk) as (_ & (_ & _ & Hne') & _).
  split; [reflexivity|]. split; [exact Hne'|].
  exists t. split; [exact Ht|]. apply known_mem. exact Hk.
Qed.

Theorem inst_do_live i ev req i' rs rd err :
  live i -> inst_do i ev req = IRes i' rs rd err -> live i'.
Proof.
  intros Hl H. eapply inst_do_core_live; [|exact H].
  apply owned_live. apply handover_owned. exact Hl.
Qed.
