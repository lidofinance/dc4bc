(* C16: the file board is an append-only, gap-free, totally ordered log. *)
From Coq Require Import List ZArith Bool Lia.
Require Import Lib.ListFacts Board.File.
Import ListNotations.
Local Open Scope Z_scope.

Definition positions_ok (f : list entry) : Prop :=
  forall i e, nth_error f i = Some e -> e_offset e = Z.of_nat i.
Definition lines_ok (limit : Z) (f : list entry) : Prop := Forall (fun e => e_len e <= limit) f.

Lemma scan_all limit f : lines_ok limit f -> scan limit f = (f, true).
Proof.
  induction 1 as [|e r He _ IH]; cbn [scan]; [reflexivity|].
  destruct (limit <? e_len e) eqn:E; [apply Z.ltb_lt in E; lia|]. rewrite IH. reflexivity.
Qed.

Lemma count_all limit f : lines_ok limit f -> count_lines limit f = Z.of_nat (length f).
Proof. intros H. unfold count_lines. rewrite scan_all by exact H. reflexivity. Qed.

Lemma positions_app f e :
  positions_ok f -> e_offset e = Z.of_nat (length f) -> positions_ok (f ++ [e]).
Proof.
  intros Hf He i x Hn. destruct (Nat.lt_ge_cases i (length f)) as [Hlt|Hge].
  - rewrite nth_error_app1 in Hn by exact Hlt. apply Hf. exact Hn.
  - rewrite nth_error_app2 in Hn by exact Hge.
    destruct (i - length f)%nat as [|k] eqn:Ek.
    + inversion Hn; subst. rewrite He. f_equal. lia.
    + destruct k; discriminate.
Qed.

Theorem send_seq_ok limit f m :
  positions_ok f -> lines_ok limit f -> snd m <= limit ->
  positions_ok (send_seq limit f m) /\ lines_ok limit (send_seq limit f m) /\
  exists e, send_seq limit f m = f ++ [e] /\ e_tag e = fst (fst m).
Proof.
  intros Hp Hl Hm. destruct m as [[tag id] len]. cbn [send_seq fst snd] in *.
  split; [|split].
  - apply positions_app; [exact Hp|]. apply count_all. exact Hl.
  - apply Forall_snoc; [exact Hl|cbn; lia].
  - eexists. split; reflexivity.
Qed.

Theorem sends_seq_ok limit ms f :
  positions_ok f -> lines_ok limit f -> Forall (fun m => snd m <= limit) ms ->
  let f' := fold_left (send_seq limit) ms f in
  positions_ok f' /\ lines_ok limit f' /\ map e_tag f' = map e_tag f ++ map (fun m => fst (fst m)) ms /\
  exists tail, f' = f ++ tail.
Proof.
  revert f. induction ms as [|m ms IH]; intros f Hp Hl Hms; cbn [fold_left map].
  - rewrite app_nil_r. repeat split; auto. exists []. symmetry. apply app_nil_r.
  - inversion Hms as [|? ? Hm Hrest]; subst.
    destruct (send_seq_ok limit f m Hp Hl Hm) as (Hp' & Hl' & e & He & Htag).
    specialize (IH (send_seq limit f m) Hp' Hl' Hrest).
    destruct IH as (I1 & I2 & I3 & I4). repeat split; auto.
    + rewrite I3, He, map_app. cbn [map]. rewrite Htag, <- app_assoc. reflexivity.
    + destruct I4 as [tail I4]. exists (e :: tail). rewrite I4, He, <- app_assoc. reflexivity.
Qed.

(* reading from offset k returns exactly the entries from position k on, minus the ignored ones *)
Theorem read_from_k limit f k ign_ids ign_offs :
  lines_ok limit f -> 0 <= k ->
  get_messages limit f k ign_ids ign_offs =
    Some (filter (fun e => negb (existsb (N.eqb (e_id e)) ign_ids) && negb (existsb (Z.eqb (e_offset e)) ign_offs))
                 (skipn (Z.to_nat k) f)).
Proof. intros Hl _. unfold get_messages. rewrite scan_all by exact Hl. reflexivity. Qed.

(* the step list of `send`; Props/C16.v compares it with the one regenerated from the source *)
Definition expected_send : list step := [SLock; SSeek; SCount; SMarshal; SWrite; SUnlock].

(* upd_writer as a structural update, for the nth_error lemmas *)
Fixpoint upd {A} (l : list A) (i : nat) (a : A) : list A :=
  match l, i with
  | [], _ => []
  | _ :: t, O => a :: t
  | h :: t, S i' => h :: upd t i' a
  end.
Lemma upd_writer_upd ws i w : (i < length ws)%nat -> upd_writer ws i w = upd ws i w.
Proof.
  revert i. induction ws as [|h t IH]; intros [|i] Hi; cbn in *; try lia; [reflexivity|].
  f_equal. apply IH. lia.
Qed.
Lemma nth_upd_same {A} (l : list A) i a : (i < length l)%nat -> nth_error (upd l i a) i = Some a.
Proof. revert i; induction l as [|h t IH]; intros [|i] H; cbn in *; try lia; auto. apply IH; lia. Qed.
Lemma nth_upd_other {A} (l : list A) i j a : j <> i -> nth_error (upd l i a) j = nth_error l j.
Proof. revert i j; induction l as [|h t IH]; intros [|i] [|j] H; cbn; auto; try lia. Qed.
Lemma upd_length {A} (l : list A) i a : length (upd l i a) = length l.
Proof. revert i; induction l as [|h t IH]; intros [|i]; cbn; auto. Qed.

(* where a writer is inside `send` *)
Definition outside (w : writer) : Prop := w_pc w = [] \/ w_pc w = expected_send.
Definition inside (flen : nat) (w : writer) : Prop :=
  w_pc w = [SSeek; SCount; SMarshal; SWrite; SUnlock] \/ w_pc w = [SCount; SMarshal; SWrite; SUnlock] \/
  ((w_pc w = [SMarshal; SWrite; SUnlock] \/ w_pc w = [SWrite; SUnlock]) /\ w_off w = Z.of_nat flen /\ w_cur w <> None) \/
  False.
Definition after_write (w : writer) : Prop := w_pc w = [SUnlock].

Definition msgs_ok limit (w : writer) : Prop :=
  Forall (fun m => snd m <= limit) (w_todo w) /\
  match w_cur w with Some m => snd m <= limit | None => True end /\
  (w_pc w <> [] -> w_cur w <> None).

Definition Inv (limit : Z) (wd : world) : Prop :=
  positions_ok (file wd) /\ lines_ok limit (file wd) /\
  (forall j w, nth_error (writers wd) j = Some w -> msgs_ok limit w) /\
  match lock wd with
  | None => forall j w, nth_error (writers wd) j = Some w -> outside w
  | Some i =>
      (exists w, nth_error (writers wd) i = Some w /\ (inside (length (file wd)) w \/ after_write w)) /\
      forall j w, j <> i -> nth_error (writers wd) j = Some w -> outside w
  end.

(* Inv, writer by writer: the holder of the lock is inside `send`, everybody else outside *)
Definition holds (lk : option nat) (j : nat) : bool := match lk with Some k => Nat.eqb k j | None => false end.
Definition status (flen : nat) (lk : option nat) (j : nat) (w : writer) : Prop :=
  if holds lk j then inside flen w \/ after_write w else outside w.

Lemma holds_true lk j : holds lk j = true -> lk = Some j.
Proof. destruct lk as [k|]; [intros H; apply Nat.eqb_eq in H; congruence|discriminate]. Qed.

Lemma holds_other lk i j : lk = None \/ lk = Some i -> j <> i -> holds lk j = false.
Proof. intros [->| ->] Hj; [reflexivity|]. apply Nat.eqb_neq. auto. Qed.

Lemma Inv_writers limit wd :
  Inv limit wd <->
  positions_ok (file wd) /\ lines_ok limit (file wd) /\
  (forall j w, nth_error (writers wd) j = Some w -> msgs_ok limit w /\ status (length (file wd)) (lock wd) j w) /\
  (forall k, lock wd = Some k -> (k < length (writers wd))%nat).
Proof.
  unfold Inv, status, holds. split.
  - intros (Hp & Hl & Hm & Hlock). split; [exact Hp|]. split; [exact Hl|]. destruct (lock wd) as [k|].
    + destruct Hlock as ((wk & Hwk & Hin) & Ho). split.
      * intros j w Hn. split; [exact (Hm j w Hn)|]. destruct (Nat.eqb_spec k j) as [<-|Hk].
        -- rewrite Hwk in Hn. injection Hn as <-. exact Hin.
        -- exact (Ho j w (not_eq_sym Hk) Hn).
      * intros k' [= <-]. apply nth_error_Some. congruence.
    + split; [|discriminate]. intros j w Hn. split; [exact (Hm j w Hn)|exact (Hlock j w Hn)].
  - intros (Hp & Hl & Hw & Hk). split; [exact Hp|]. split; [exact Hl|]. split; [intros j w Hn; apply (Hw j w Hn)|].
    destruct (lock wd) as [k|].
    + split.
      * destruct (nth_error (writers wd) k) as [wk|] eqn:E; [|apply nth_error_None in E; specialize (Hk k eq_refl); lia].
        exists wk. split; [reflexivity|]. pose proof (proj2 (Hw k wk E)) as H. rewrite Nat.eqb_refl in H. exact H.
      * intros j w Hj Hn. pose proof (proj2 (Hw j w Hn)) as H. rewrite (proj2 (Nat.eqb_neq k j)) in H by auto. exact H.
    + intros j w Hn. apply (Hw j w Hn).
Qed.

Lemma nth_upd_writer ws i w' j :
  (i < length ws)%nat -> nth_error (upd_writer ws i w') j = if Nat.eqb j i then Some w' else nth_error ws j.
Proof.
  intros Hi. rewrite upd_writer_upd by exact Hi.
  destruct (Nat.eqb_spec j i) as [->|Hj]; [apply nth_upd_same, Hi|apply nth_upd_other, Hj].
Qed.

(* the frame of a step of writer i: the other writers keep their status when lock and file stay, or
   when the lock was free or i's and is free or i's afterwards (then all of them are outside) *)
Lemma Inv_upd limit wd i w' f' lk' :
  Inv limit wd -> (i < length (writers wd))%nat ->
  positions_ok f' -> lines_ok limit f' -> msgs_ok limit w' -> status (length f') lk' i w' ->
  (lk' = lock wd /\ f' = file wd) \/ ((lock wd = None \/ lock wd = Some i) /\ (lk' = None \/ lk' = Some i)) ->
  Inv limit {| file := f'; lock := lk'; writers := upd_writer (writers wd) i w' |}.
Proof.
  intros HI Hi Hp' Hl' Hm' Hst Hfr. apply Inv_writers in HI as (_ & _ & Hw & Hk).
  apply Inv_writers. cbn [file lock writers]. split; [exact Hp'|]. split; [exact Hl'|]. split.
  - intros j x. rewrite nth_upd_writer by exact Hi. destruct (Nat.eqb_spec j i) as [->|Hj]; [intros [= <-]; auto|].
    intros Hn. destruct (Hw j x Hn) as [Hm Hs]. split; [exact Hm|]. destruct Hfr as [[-> ->]|[Hold Hnew]]; [exact Hs|].
    unfold status in *. rewrite (holds_other _ i j Hold Hj) in Hs. rewrite (holds_other _ i j Hnew Hj). exact Hs.
  - intros k Ek. rewrite upd_writer_upd, upd_length by exact Hi.
    destruct Hfr as [[-> _]|[_ [->| ->]]]; [exact (Hk k Ek)|discriminate|injection Ek as <-; exact Hi].
Qed.

Lemma msgs_ok_step limit w pc o :
  msgs_ok limit w -> w_pc w <> [] ->
  msgs_ok limit {| w_pc := pc; w_todo := w_todo w; w_cur := w_cur w; w_off := o |}.
Proof. intros (H1 & H2 & H3) Hc. split; [exact H1|]. split; [exact H2|]. intros _. exact (H3 Hc). Qed.

Theorem sched_step_inv limit wd i :
  Inv limit wd -> Inv limit (sched_step expected_send limit wd i).
Proof.
  intros HI. unfold sched_step. destruct (nth_error (writers wd) i) as [w|] eqn:Ew; [|exact HI].
  assert (Hi : (i < length (writers wd))%nat) by (apply nth_error_Some; congruence).
  pose proof (proj1 (Inv_writers _ _) HI) as (Hp & Hl & Hw & _). destruct (Hw i w Ew) as [Hm Hst]. clear Hw.
  pose proof (fun w' lk' => Inv_upd limit wd i w' (file wd) lk' HI Hi Hp Hl) as Hstay.
  pose proof (fun pc o => msgs_ok_step limit w pc o Hm) as Hm'.
  unfold status in Hst. destruct (holds (lock wd) i) eqn:Eh.
  - (* i holds the lock: it is at Seek, Count, Marshal, Write or Unlock (`inside` ends in `\/ False`) *)
    pose proof (holds_true _ _ Eh) as Elk.
    destruct Hst as [[E|[E|[([E|E] & Hoff & Hc)|[]]]]|E]; rewrite E in *.
    + (* Seek *) apply Hstay; [apply Hm'; discriminate| |rewrite Elk; auto].
      unfold status. rewrite Eh. left. right. left. reflexivity.
    + (* Count: the offset is the length of the file, which nobody else can extend *)
      apply Hstay; [apply Hm'; discriminate| |rewrite Elk; auto].
      unfold status. rewrite Eh. left. right. right. left.
      split; [left; reflexivity|]. split; [apply count_all, Hl|apply Hm; congruence].
    + (* Marshal *) apply Hstay; [apply Hm'; discriminate| |rewrite Elk; auto].
      unfold status. rewrite Eh. left. right. right. left. split; [right; reflexivity|]. split; [exact Hoff|exact Hc].
    + (* Write: the new entry carries the counted offset, its position *)
      destruct Hm as (Hm1 & Hm2 & _). destruct (w_cur w) as [[[tag id] len]|]; [|contradiction].
      apply Inv_upd; try assumption.
      * apply positions_app; [exact Hp|exact Hoff].
      * apply Forall_snoc; [exact Hl|exact Hm2].
      * split; [exact Hm1|]. split; [exact Hm2|]. discriminate.
      * unfold status. rewrite Elk. cbn. rewrite Nat.eqb_refl. right. reflexivity.
      * rewrite Elk. auto.
    + (* Unlock *) rewrite Elk, Nat.eqb_refl. apply Hstay; [apply Hm'; discriminate|left; reflexivity|rewrite Elk; auto].
  - (* i is outside: idle, or at Lock *)
    destruct Hst as [E|E]; rewrite E in *.
    + (* idle: the next message, if any *)
      destruct Hm as (Hm1 & _). destruct (w_todo w) as [|m r]; [exact HI|]. inversion Hm1; subst.
      apply Hstay; [|unfold status; rewrite Eh; right; reflexivity|auto].
      split; [assumption|]. split; [assumption|]. discriminate.
    + (* Lock: blocked, or the lock is free and taken *)
      destruct (lock wd) eqn:Elk; [exact HI|].
      apply Hstay; [apply Hm'; discriminate| |auto].
      unfold status. cbn. rewrite Nat.eqb_refl. left. left. reflexivity.
Qed.

(* previously written entries never change *)
Lemma sched_step_prefix prog limit wd i : exists tail, file (sched_step prog limit wd i) = file wd ++ tail.
Proof.
  unfold sched_step. destruct (nth_error (writers wd) i) as [w|]; [|exists []; apply app_nil_end].
  destruct (w_pc w) as [|s pc'].
  - destruct (w_todo w); exists []; apply app_nil_end.
  - destruct s; try (exists []; apply app_nil_end).
    + destruct (lock wd); exists []; apply app_nil_end.
    + destruct (w_cur w) as [[[tag id] len]|]; [eexists; reflexivity|exists []; apply app_nil_end].
Qed.
