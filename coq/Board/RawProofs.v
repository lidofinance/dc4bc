(* C16 on an arbitrary board file (junk lines, hostile offset claims): what the reader hands out is
   gap-free in the sense that matters to the poller - offsets are positions, strictly increasing,
   and reading from k gives exactly the entries a reader from 0 was given at offsets >= k. *)
From Coq Require Import List ZArith Bool Lia Sorted.
Require Import Board.File Board.FileProofs Board.Raw.
Import ListNotations.
Local Open Scope Z_scope.

(* every entry handed out: its offset is the position of the line it was decoded from, at or after
   the requested offset, and its tag/id are that line's *)
Lemma read_from_sound pos k ids offs l e :
  In e (read_from pos k ids offs l) ->
  exists i x, nth_error l i = Some (LEntry x) /\ e_offset e = pos + Z.of_nat i /\ k <= e_offset e /\
              e_tag e = e_tag x /\ e_id e = e_id x /\
              existsb (N.eqb (e_id x)) ids = false /\ existsb (Z.eqb (e_offset e)) offs = false.
Proof.
  revert pos. induction l as [|x r IH]; intros pos Hin; cbn [read_from] in Hin; [contradiction|].
  assert (Hrest : In e (read_from (pos + 1) k ids offs r) ->
                  exists i y, nth_error (x :: r) i = Some (LEntry y) /\ e_offset e = pos + Z.of_nat i /\ k <= e_offset e /\
                              e_tag e = e_tag y /\ e_id e = e_id y /\
                              existsb (N.eqb (e_id y)) ids = false /\ existsb (Z.eqb (e_offset e)) offs = false).
  { intros H. destruct (IH (pos + 1) H) as (i & y & Hn & Ho & Hk & Ht).
    exists (S i), y. split; [exact Hn|]. split; [lia|]. split; [exact Hk|exact Ht]. }
  destruct (pos <? k) eqn:Ek; [apply Hrest; exact Hin|]. apply Z.ltb_ge in Ek.
  destruct x as [x|n]; [|apply Hrest; exact Hin].
  destruct (existsb (N.eqb (e_id x)) ids) eqn:Ei; [apply Hrest; exact Hin|].
  destruct (existsb (Z.eqb pos) offs) eqn:Eo; [apply Hrest; exact Hin|].
  destruct Hin as [<-|Hin]; [|apply Hrest; exact Hin].
  exists 0%nat, x. cbn. repeat split; auto; lia.
Qed.

(* ... and every decodable, not ignored line at or after the requested offset IS handed out *)
Lemma read_from_complete pos k ids offs l i x :
  nth_error l i = Some (LEntry x) -> k <= pos + Z.of_nat i ->
  existsb (N.eqb (e_id x)) ids = false -> existsb (Z.eqb (pos + Z.of_nat i)) offs = false ->
  In {| e_tag := e_tag x; e_offset := pos + Z.of_nat i; e_id := e_id x; e_len := e_len x |} (read_from pos k ids offs l).
Proof.
  revert pos i. induction l as [|y r IH]; intros pos i Hn Hk Hi Ho; [destruct i; discriminate|].
  cbn [read_from]. destruct i as [|i].
  - inversion Hn; subst y. rewrite Z.add_0_r in *.
    destruct (pos <? k) eqn:Ek; [apply Z.ltb_lt in Ek; lia|]. rewrite Hi, Ho. left. reflexivity.
  - replace (pos + Z.of_nat (S i)) with (pos + 1 + Z.of_nat i) in * by lia.
    specialize (IH (pos + 1) i Hn Hk Hi Ho).
    destruct (pos <? k); [exact IH|]. destruct y as [y|n]; [|exact IH].
    destruct (existsb (N.eqb (e_id y)) ids || existsb (Z.eqb pos) offs); [exact IH|right; exact IH].
Qed.

(* the offsets handed out are strictly increasing: a total order without repeats *)
Theorem read_from_increasing pos k ids offs l :
  StronglySorted (fun a b => e_offset a < e_offset b) (read_from pos k ids offs l).
Proof.
  revert pos. induction l as [|x r IH]; intros pos; cbn [read_from]; [constructor|].
  destruct (pos <? k); [apply IH|]. destruct x as [x|n]; [|apply IH].
  destruct (existsb (N.eqb (e_id x)) ids || existsb (Z.eqb pos) offs); [apply IH|].
  constructor; [apply IH|]. apply Forall_forall. intros e He. destruct (read_from_sound _ _ _ _ _ _ He) as (i & y & _ & Ho & _). cbn. lia.
Qed.

(* a read from k is a read that passes nothing over, restricted to the offsets >= k *)
Lemma read_from_filter pos k k' ids offs l :
  k' <= pos -> read_from pos k ids offs l = filter (fun e => k <=? e_offset e) (read_from pos k' ids offs l).
Proof.
  revert pos. induction l as [|x r IH]; intros pos Hk'; cbn [read_from]; [reflexivity|].
  rewrite (IH (pos + 1)) by lia. destruct (Z.ltb_spec pos k'); [lia|].
  destruct x as [y|n]; [|destruct (pos <? k); reflexivity].
  destruct (existsb (N.eqb (e_id y)) ids || existsb (Z.eqb pos) offs); [destruct (pos <? k); reflexivity|].
  cbn [filter e_offset]. rewrite Z.leb_antisym. destruct (pos <? k); reflexivity.
Qed.

(* on a file that only `send` has written (no junk, every stored offset its position, lines within
   the limit) the reader of an arbitrary file is the reader of Board/File.v: the next two lemmas *)
Lemma read_from_entries pos k ids offs f :
  (forall i e, nth_error f i = Some e -> e_offset e = pos + Z.of_nat i) ->
  read_from pos k ids offs (map LEntry f) =
  filter (fun e => negb (existsb (N.eqb (e_id e)) ids) && negb (existsb (Z.eqb (e_offset e)) offs))
         (skipn (Z.to_nat (k - pos)) f).
Proof.
  revert pos. induction f as [|e r IH]; intros pos Hp; cbn [map read_from].
  - rewrite skipn_nil. reflexivity.
  - assert (He : e_offset e = pos) by (rewrite (Hp 0%nat e eq_refl); lia).
    rewrite (IH (pos + 1)) by (intros i x Hn; rewrite (Hp (S i) x Hn); lia).
    destruct (Z.ltb_spec pos k).
    + replace (Z.to_nat (k - pos)) with (S (Z.to_nat (k - (pos + 1)))) by lia. reflexivity.
    + replace (Z.to_nat (k - pos)) with 0%nat by lia. replace (Z.to_nat (k - (pos + 1))) with 0%nat by lia.
      cbn [skipn filter]. rewrite He.
      destruct (existsb (N.eqb (e_id e)) ids); [reflexivity|].
      destruct (existsb (Z.eqb pos) offs); [reflexivity|].
      f_equal. destruct e; subst; reflexivity.
Qed.

Lemma scan_lines_entries limit f : lines_ok limit f -> scan_lines limit (map LEntry f) = (map LEntry f, true).
Proof.
  induction 1 as [|e r He _ IH]; cbn [map scan_lines line_len]; [reflexivity|].
  destruct (limit <? e_len e) eqn:E; [apply Z.ltb_lt in E; lia|]. rewrite IH. reflexivity.
Qed.

(* non-vacuity / the shape of the harness' hostile file: a sent entry, two sparse lines, a line that is
   not JSON, one with a field of the wrong type, one that claims offset 900 *)
Example hostile_file_read :
  let f := [LEntry {| e_tag := 1%N; e_offset := 0; e_id := 11%N; e_len := 200 |};
            LEntry {| e_tag := 2%N; e_offset := 1; e_id := 12%N; e_len := 50 |};
            LEntry {| e_tag := 3%N; e_offset := 2; e_id := 13%N; e_len := 50 |};
            LJunk 28; LJunk 60;
            LEntry {| e_tag := 6%N; e_offset := 900; e_id := 16%N; e_len := 90 |}] in
  option_map (map (fun e => (e_tag e, e_offset e))) (get_messages_raw LIMIT f 0 [] []) =
    Some [(1%N, 0); (2%N, 1); (3%N, 2); (6%N, 5)] /\
  option_map (map (fun e => (e_tag e, e_offset e))) (get_messages_raw LIMIT f 3 [] []) = Some [(6%N, 5)] /\
  option_map (map (fun e => (e_tag e, e_offset e))) (get_messages_raw LIMIT f 0 [12%N] [5]) = Some [(1%N, 0); (3%N, 2)].
Proof. vm_compute. repeat split. Qed.
